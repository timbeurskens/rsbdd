(** Facts about the reference semantics: congruence, substitution (C06 scoping). *)
From Coq Require Import List Arith Bool PeanoNat ZArith NArith Lia.
Import ListNotations.
From Rsbdd Require Import Core.Bdd Core.Quant Lang.Ast Lang.AstFacts Lang.Den.

Lemma deq_refl d : deq d d. Proof. intros s; reflexivity. Qed.
Lemma deq_sym d d' : deq d d' -> deq d' d. Proof. intros H s; symmetry; apply H. Qed.
Lemma deq_trans a b c : deq a b -> deq b c -> deq a c. Proof. intros H1 H2 s; rewrite H1; apply H2. Qed.

(** induction along the iterate sequence of [Den]'s fixed-point clause: seq 0 .. seq (S n) *)
Lemma iterates_all {A} (P : A -> Prop) (seq : nat -> A) n :
  P (seq 0) -> (forall j, j <= n -> P (seq j) -> P (seq (S j))) -> forall j, j <= S n -> P (seq j).
Proof. intros H0 HS. induction j as [|j IHj]; intros Hj; [exact H0|]. apply HS; [lia|apply IHj; lia]. Qed.

Definition oeq (a b : option den) : Prop :=
  match a, b with Some x, Some y => deq x y | None, None => True | _, _ => False end.
Definition eeq (r r' : fenv) : Prop := forall v, oeq (r v) (r' v).

Lemma oeq_refl a : oeq a a. Proof. destruct a; cbn; auto using deq_refl. Qed.
Lemma eeq_eq r r' : (forall v, r v = r' v) -> eeq r r'. Proof. intros H v. rewrite H. apply oeq_refl. Qed.
Lemma eeq_refl r : eeq r r. Proof. apply eeq_eq. reflexivity. Qed.
Lemma eeq_unbind r r' vs : eeq r r' -> eeq (unbind r vs) (unbind r' vs).
Proof. intros H v. unfold unbind. destruct (mem_nat v vs); cbn; auto; apply H. Qed.
Lemma eeq_bind r r' x d d' : eeq r r' -> deq d d' -> eeq (bind r x d) (bind r' x d').
Proof. intros H Hd v. unfold bind. destruct (Nat.eqb v x); cbn; auto; apply H. Qed.

Lemma Dens_nested r : forall fs ds,
  (fix dens (fs : list form) (ds : list den) : Prop :=
     match fs, ds with [], [] => True | g :: fs', e :: ds' => Den r g e /\ dens fs' ds' | _, _ => False end) fs ds <-> Dens r fs ds.
Proof. induction fs as [|g fs' IH]; intros [|e ds']; cbn [Dens]; try tauto. rewrite IH. tauto. Qed.
Lemma Dens_Forall2 r fs : forall ds, Dens r fs ds <-> Forall2 (Den r) fs ds.
Proof.
  induction fs as [|g fs IH]; intros [|e ds]; cbn [Dens].
  - split; constructor.
  - split; [tauto|intros H; inversion H].
  - split; [tauto|intros H; inversion H].
  - rewrite IH. split; [intros [? ?]; constructor; auto|intros H; inversion H; subst; auto].
Qed.
Lemma Den_countc r op fs n d :
  Den r (FCountC op fs n) d <-> exists ds, Dens r fs ds /\ deq d (fun s => cop_sem op (count_den ds s) (Z.of_N n)).
Proof. cbn [Den]. setoid_rewrite Dens_nested. reflexivity. Qed.
Lemma Den_countv r op l rr d :
  Den r (FCountV op l rr) d <-> exists dl dr, Dens r l dl /\ Dens r rr dr /\ deq d (fun s => cop_sem op (count_den dl s) (count_den dr s)).
Proof. cbn [Den]. setoid_rewrite Dens_nested. reflexivity. Qed.

Lemma Dens_map r r' (phi : form -> form) (h : den -> den) fs : forall ds,
  (forall g, In g fs -> forall d, Den r g d -> Den r' (phi g) (h d)) ->
  Dens r fs ds -> Dens r' (map phi fs) (map h ds).
Proof.
  induction fs as [|g fs IH]; intros [|d ds] H; cbn [Dens map]; try contradiction; auto.
  intros [Dg Dr]. split; [|apply IH]; auto with datatypes.
Qed.
Lemma Dens_all r (Q : den -> Prop) fs : forall ds,
  (forall g, In g fs -> forall d, Den r g d -> Q d) -> Dens r fs ds -> Forall Q ds.
Proof.
  induction fs as [|g fs IH]; intros [|d ds] H; cbn [Dens]; try contradiction; [constructor|].
  intros [Dg Dr]. constructor; [apply (H g)|apply IH]; eauto with datatypes.
Qed.
Lemma Dens_rel r1 r2 (Q : den -> den -> Prop) fs : forall ds1 ds2,
  (forall g, In g fs -> forall d1 d2, Den r1 g d1 -> Den r2 g d2 -> Q d1 d2) ->
  Dens r1 fs ds1 -> Dens r2 fs ds2 -> Forall2 Q ds1 ds2.
Proof.
  induction fs as [|g fs IH]; intros [|d1 ds1] [|d2 ds2] H; cbn [Dens]; try contradiction; [constructor|].
  intros [D1 R1] [D2 R2]. constructor; [apply (H g)|apply IH]; eauto with datatypes.
Qed.

Lemma Dens_fun r (h : form -> den) fs : (forall g, In g fs -> Den r g (h g)) -> Dens r fs (map h fs).
Proof. induction fs as [|g fs IH]; intros H; cbn [Dens map]; auto. split; [|apply IH]; auto with datatypes. Qed.
Lemma Dens_map_iff r r' (phi : form -> form) fs : forall ds,
  (forall g, In g fs -> forall d, Den r' (phi g) d <-> Den r g d) -> (Dens r' (map phi fs) ds <-> Dens r fs ds).
Proof.
  induction fs as [|g fs IH]; intros [|d ds] H; cbn [Dens map]; try tauto.
  rewrite (H g), IH; [tauto| |]; auto with datatypes.
Qed.

Lemma count_den_ext ds ds' : Forall2 deq ds ds' -> forall s, count_den ds s = count_den ds' s.
Proof. induction 1 as [|d d' l l' Hd Hl IH]; intros s; cbn [count_den]; auto. rewrite (Hd s), IH. reflexivity. Qed.

Lemma fold_quant_ext q vs d d' : deq d d' -> deq (fold_right (quant_sem q) d vs) (fold_right (quant_sem q) d' vs).
Proof.
  intros H. induction vs as [|v vs IH]; cbn [fold_right]; auto.
  intros s. destruct q; cbn [quant_sem]; unfold ex1, all1; rewrite !IH; reflexivity.
Qed.

(** a denotation occurs in [Den] only in the closing [deq] of each clause *)
Lemma Den_deq f r d d' : deq d d' -> Den r f d -> Den r f d'.
Proof. intros E%deq_sym. destruct f; cbn [Den]; intros H; decompose record H; eauto 10 using deq_trans. Qed.

(** the meaning of a compound formula depends on its operands only through their meanings *)
Section Cong.
  Variables r r' : fenv.
  Lemma Den_not_cong g g' : (forall d, Den r g d <-> Den r' g' d) -> forall d, Den r (FNot g) d <-> Den r' (FNot g') d.
  Proof. intros H d. cbn [Den]. setoid_rewrite H. reflexivity. Qed.
  Lemma Den_quant_cong q vs g g' :
    (forall d, Den (unbind r vs) g d <-> Den (unbind r' vs) g' d) -> forall d, Den r (FQuant q vs g) d <-> Den r' (FQuant q vs g') d.
  Proof. intros H d. cbn [Den]. setoid_rewrite H. reflexivity. Qed.
  Lemma Den_countc_cong op fs fs' n :
    (forall ds, Dens r fs ds <-> Dens r' fs' ds) -> forall d, Den r (FCountC op fs n) d <-> Den r' (FCountC op fs' n) d.
  Proof. intros H d. rewrite !Den_countc. setoid_rewrite H. reflexivity. Qed.
  Lemma Den_countv_cong op l l' rr rr' :
    (forall ds, Dens r l ds <-> Dens r' l' ds) -> (forall ds, Dens r rr ds <-> Dens r' rr' ds) ->
    forall d, Den r (FCountV op l rr) d <-> Den r' (FCountV op l' rr') d.
  Proof. intros Hl Hr d. rewrite !Den_countv. setoid_rewrite Hl. setoid_rewrite Hr. reflexivity. Qed.
  Lemma Den_fix_cong x x' i g g' :
    (forall e d, Den (bind r x e) g d <-> Den (bind r' x' e) g' d) -> forall d, Den r (FFix x i g) d <-> Den r' (FFix x' i g') d.
  Proof. intros H d. cbn [Den]. setoid_rewrite H. reflexivity. Qed.
  Lemma Den_ite_cong c c' t t' e e' :
    (forall d, Den r c d <-> Den r' c' d) -> (forall d, Den r t d <-> Den r' t' d) -> (forall d, Den r e d <-> Den r' e' d) ->
    forall d, Den r (FIte c t e) d <-> Den r' (FIte c' t' e') d.
  Proof. intros Hc Ht He d. cbn [Den]. setoid_rewrite Hc. setoid_rewrite Ht. setoid_rewrite He. reflexivity. Qed.
  Lemma Den_bin_cong op a a' b b' :
    (forall d, Den r a d <-> Den r' a' d) -> (forall d, Den r b d <-> Den r' b' d) ->
    forall d, Den r (FBin op a b) d <-> Den r' (FBin op a' b') d.
  Proof. intros Ha Hb d. cbn [Den]. setoid_rewrite Ha. setoid_rewrite Hb. reflexivity. Qed.
End Cong.

Lemma Den_env : forall f r r' d, eeq r r' -> Den r f d <-> Den r' f d.
Proof.
  induction f as [| |v|g IH|q vs g IH|op fs n IH|op l rr IHl IHr|x i g IH|c t e IHc IHt IHe|op l rr IHl IHr|b0|] using form_ind';
    intros r r' d He.
  - reflexivity.
  - reflexivity.
  - cbn [Den]. specialize (He v). destruct (r v), (r' v); cbn in He; try tauto.
    split; intros H; (eapply deq_trans; [exact H|]); auto using deq_sym.
  - apply Den_not_cong. intros e. apply IH, He.
  - apply Den_quant_cong. intros e. apply IH, eeq_unbind, He.
  - rewrite Forall_forall in IH. apply Den_countc_cong. intros ds. rewrite <- (map_id fs) at 1.
    apply (Dens_map_iff r' r). intros g Hg e. apply (IH g Hg), He.
  - rewrite Forall_forall in IHl, IHr. apply Den_countv_cong; intros ds.
    + rewrite <- (map_id l) at 1. apply (Dens_map_iff r' r). intros g Hg e. apply (IHl g Hg), He.
    + rewrite <- (map_id rr) at 1. apply (Dens_map_iff r' r). intros g Hg e. apply (IHr g Hg), He.
  - apply Den_fix_cong. intros e d1. apply IH, eeq_bind; [exact He|apply deq_refl].
  - apply Den_ite_cong; intros d1; [apply IHc|apply IHt|apply IHe]; exact He.
  - apply Den_bin_cong; intros d1; [apply IHl|apply IHr]; exact He.
  - reflexivity.
  - reflexivity.
Qed.
Lemma Den_ext : forall f r r' d d', eeq r r' -> deq d d' -> Den r f d -> Den r' f d'.
Proof. intros f r r' d d' He Hd H. apply (Den_deq f r' d d' Hd), (Den_env f r r' d He), H. Qed.

Lemma Den_bind_deq r x d d' f e : deq d d' -> Den (bind r x d) f e -> Den (bind r x d') f e.
Proof. intros H. exact (proj1 (Den_env f _ _ e (eeq_bind r r x d d' (eeq_refl r) H))). Qed.
Lemma eeq_unbind_empty vs : eeq empty (unbind empty vs).
Proof. apply eeq_eq. intros v. unfold unbind, empty. destruct (mem_nat v vs); reflexivity. Qed.
Lemma Den_unbind_empty vs g d : Den (unbind empty vs) g d <-> Den empty g d.
Proof. symmetry. apply Den_env, eeq_unbind_empty. Qed.

Lemma eeq_unbind_bind_in r x d vs : mem_nat x vs = true -> eeq (unbind r vs) (unbind (bind r x d) vs).
Proof.
  intros Hin. apply eeq_eq. intros v. unfold unbind, bind. destruct (mem_nat v vs) eqn:E; auto.
  destruct (Nat.eqb_spec v x); [subst; congruence|reflexivity].
Qed.
Lemma eeq_unbind_bind_out r x d vs : mem_nat x vs = false -> eeq (bind (unbind r vs) x d) (unbind (bind r x d) vs).
Proof.
  intros Hout. apply eeq_eq. intros v. unfold unbind, bind. destruct (Nat.eqb_spec v x) as [->|]; [rewrite Hout|]; reflexivity.
Qed.
Lemma eeq_bind_bind_same r x d e : eeq (bind r x e) (bind (bind r x d) x e).
Proof. apply eeq_eq. intros v. unfold bind. destruct (Nat.eqb v x); reflexivity. Qed.
Lemma eeq_bind_bind_comm r x y d e : x <> y -> eeq (bind (bind r y e) x d) (bind (bind r x d) y e).
Proof.
  intros Hne. apply eeq_eq. intros v. unfold bind. destruct (Nat.eqb_spec v x), (Nat.eqb_spec v y); subst; congruence.
Qed.

(** C06 scoping: substituting the iterate is binding the name, with shadowing by quantifier
    lists and inner fixed points on the same name. *)
Lemma subst_den : forall t r x b d,
  Den r (replace_var x (FSub b) t) d <-> Den (bind r x (fun s => beval s b)) t d.
Proof.
  induction t as [| |v|g IH|q vs g IH|op fs n IH|op l rr IHl IHr|y i g IH|c t e IHc IHt IHe|op l rr IHl IHr|b0|] using form_ind';
    intros r x b d; cbn [replace_var].
  - reflexivity.
  - reflexivity.
  - cbn [Den]. unfold bind. cbn beta. destruct (Nat.eqb v x); reflexivity.
  - apply Den_not_cong. intros e. apply IH.
  - destruct (mem_nat x vs) eqn:E; apply Den_quant_cong; intros e.
    + apply Den_env, eeq_unbind_bind_in, E.
    + rewrite IH. apply Den_env, eeq_unbind_bind_out, E.
  - rewrite Forall_forall in IH. apply Den_countc_cong. intros ds. apply Dens_map_iff. intros g Hg e. apply (IH g Hg).
  - rewrite Forall_forall in IHl, IHr. apply Den_countv_cong; intros ds; apply Dens_map_iff; intros g Hg e; [apply (IHl g Hg)|apply (IHr g Hg)].
  - destruct (Nat.eqb_spec y x) as [->|Hne]; apply Den_fix_cong; intros e d1.
    + apply Den_env, eeq_bind_bind_same.
    + rewrite IH. apply Den_env, eeq_bind_bind_comm. congruence.
  - apply Den_ite_cong; intros d1; [apply IHc|apply IHt|apply IHe].
  - apply Den_bin_cong; intros d1; [apply IHl|apply IHr].
  - reflexivity.
  - reflexivity.
Qed.
