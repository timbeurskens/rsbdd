(** C11 (meaning is independent of the id assignment): renaming all variable ids of a formula
    by an injective map renames its denotation. *)
From Coq Require Import List Arith Bool PeanoNat Lia.
Import ListNotations.
From Rsbdd Require Import Core.Bdd Core.Quant.
From Rsbdd Require Import Lang.Ast Lang.AstFacts Lang.Den Lang.DenFacts Lang.Eval Lang.EvalSound Lang.EvalComplete Lang.Free.

Section Rename.
  Variable p q : nat -> nat.
  Hypothesis q_p : forall x, q (p x) = x.          (* p has a left inverse, hence is injective *)

  Lemma p_inj x y : p x = p y -> x = y.
  Proof. intros H. rewrite <- (q_p x), <- (q_p y), H. reflexivity. Qed.

  (** an embedded diagram ([FSub]) is left as it is, hence [nofsub] in every theorem below *)
  Fixpoint rename (f : form) : form :=
    match f with
    | FVar v => FVar (p v)
    | FNot g => FNot (rename g)
    | FQuant qq vs g => FQuant qq (map p vs) (rename g)
    | FCountC op fs n => FCountC op (map rename fs) n
    | FCountV op l r => FCountV op (map rename l) (map rename r)
    | FFix v i g => FFix (p v) i (rename g)
    | FIte a b c => FIte (rename a) (rename b) (rename c)
    | FBin op a b => FBin op (rename a) (rename b)
    | _ => f
    end.

  (** the denotation after renaming: [d] read under the assignment pulled back along [p] *)
  Definition pull (d : den) : den := fun s => d (fun x => s (p x)).
  (** [erel r r']: r' at [p x] is the pull of r at [x]; outside the image of [p], r' is not constrained *)
  Definition orel (a b : option den) : Prop :=
    match a, b with Some d, Some d' => deq d' (pull d) | None, None => True | _, _ => False end.
  Definition erel (r r' : fenv) : Prop := forall x, orel (r x) (r' (p x)).

  Lemma eqb_p x y : Nat.eqb (p x) (p y) = Nat.eqb x y.
  Proof. destruct (Nat.eqb_spec x y) as [->|NE]; [apply Nat.eqb_refl|]. apply Nat.eqb_neq. intros E. apply NE, p_inj, E. Qed.

  Lemma mem_nat_map x vs : mem_nat (p x) (map p vs) = mem_nat x vs.
  Proof. unfold mem_nat. induction vs as [|v vs IH]; cbn [map existsb]; auto. rewrite IH, eqb_p. reflexivity. Qed.

  Lemma erel_unbind r r' vs : erel r r' -> erel (unbind r vs) (unbind r' (map p vs)).
  Proof. intros H x. unfold unbind. rewrite mem_nat_map. destruct (mem_nat x vs); cbn; auto; apply H. Qed.
  Lemma erel_bind r r' X d d' : erel r r' -> deq d' (pull d) -> erel (bind r X d) (bind r' (p X) d').
  Proof. intros H Hd x. unfold bind. rewrite eqb_p. destruct (Nat.eqb x X); [exact Hd|apply H]. Qed.

  Lemma pull_upd d v c s : respects d -> pull d (upd s (p v) c) = d (upd (fun x => s (p x)) v c).
  Proof. intros Hd. unfold pull. apply Hd. intros x. unfold upd. rewrite eqb_p. reflexivity. Qed.

  Lemma pull_quant qq d vs : respects d -> deq (pull (fold_right (quant_sem qq) d vs)) (fold_right (quant_sem qq) (pull d) (map p vs)).
  Proof.
    intros Hd. induction vs as [|v vs IH]; cbn [map fold_right]; [apply deq_refl|].
    assert (Hr : respects (fold_right (quant_sem qq) d vs)) by (apply respects_fold_quant; auto).
    intros s. destruct qq; cbn [quant_sem]; unfold ex1, all1; rewrite <- !IH, !(pull_upd _ _ _ _ Hr); reflexivity.
  Qed.

  Lemma deq_pull d e : deq d e -> deq (pull d) (pull e).
  Proof. intros H s. apply H. Qed.
  (** the pull-back loses nothing: every assignment is a pulled-back one (up to pointwise equality) *)
  Lemma pull_reflects d e : respects d -> respects e -> deq (pull d) (pull e) -> deq d e.
  Proof.
    intros Hd He H s. specialize (H (fun y => s (q y))). unfold pull in H.
    rewrite (Hd s (fun x => s (q (p x)))), (He s (fun x => s (q (p x)))); auto; intros x; rewrite q_p; reflexivity.
  Qed.

  Lemma count_pull ds s : count_den (map pull ds) s = count_den ds (fun x => s (p x)).
  Proof. induction ds as [|d ds IH]; cbn [map count_den]; auto. rewrite IH. reflexivity. Qed.

  Theorem Den_rename : forall f r r' d, nofsub f -> env_respects r -> erel r r' -> Den r f d -> Den r' (rename f) (pull d).
  Proof.
    induction f as [| |v|g IH|qq vs g IH|op fs n IH|op l rr IHl IHr|y i g IH|c t e IHc IHt IHe|op l rr IHl IHr|b0|] using form_ind';
      intros r r' d Hns Hres Hrel; cbn [rename]; cbn [nofsub] in Hns.
    - exact (deq_pull _ _).
    - exact (deq_pull _ _).
    - cbn [Den]. intros H. specialize (Hrel v). destruct (r v) as [e|], (r' (p v)) as [e'|]; cbn in Hrel; try contradiction.
      + exact (deq_trans _ _ _ (deq_pull _ _ H) (deq_sym _ _ Hrel)).
      + exact (deq_pull _ _ H).
    - cbn [Den]. intros (d1 & H1 & H2). exists (pull d1). split; [apply (IH r r'); auto|exact (deq_pull _ _ H2)].
    - cbn [Den]. intros (d1 & H1 & H2). pose proof (env_all_unbind _ _ vs Hres) as Hres'. exists (pull d1). split.
      + apply (IH (unbind r vs)); auto. apply erel_unbind; auto.
      + exact (deq_trans _ _ _ (deq_pull _ _ H2) (pull_quant qq d1 vs (Den_respects g _ d1 Hres' H1))).
    - rewrite !Den_countc. intros (ds & H1 & H2). apply nofsub_list in Hns. rewrite Forall_forall in IH, Hns.
      exists (map pull ds). split.
      + apply (Dens_map r r'); [|exact H1]. intros g Hg e. apply (IH g Hg r r'); auto.
      + intros s. rewrite count_pull. apply H2.
    - rewrite !Den_countv. intros (dl & dr & H1 & H2 & H3). destruct Hns as [Nl Nr]. apply nofsub_list in Nl. apply nofsub_list in Nr.
      rewrite Forall_forall in IHl, IHr, Nl, Nr. exists (map pull dl), (map pull dr). split; [|split].
      + apply (Dens_map r r'); [|exact H1]. intros g Hg e. apply (IHl g Hg r r'); auto.
      + apply (Dens_map r r'); [|exact H2]. intros g Hg e. apply (IHr g Hg r r'); auto.
      + intros s. rewrite !count_pull. apply H3.
    - cbn [Den]. intros (seq & n & H0 & Hs & Hne & Hst & Hd).
      assert (Hall : forall j, j <= S n -> respects (seq j)).
      { apply iterates_all.
        - apply (respects_deq _ _ (deq_sym _ _ H0)). intros s s' _. reflexivity.
        - intros j Hj Rj. apply (Den_respects g (bind r y (seq j)) (seq (S j))); [apply env_all_bind; assumption|apply Hs, Hj]. }
      exists (fun j => pull (seq j)), n. split; [|split; [|split; [|split]]].
      + exact (deq_pull _ _ H0).
      + intros j Hj. apply (IH (bind r y (seq j)) (bind r' (p y) (pull (seq j)))); auto.
        * apply env_all_bind; [exact Hres|apply Hall; lia].
        * apply erel_bind; auto. apply deq_refl.
      + intros j Hj E. apply (Hne j Hj). apply pull_reflects; auto; apply Hall; lia.
      + apply deq_pull. exact Hst.
      + apply deq_pull. exact Hd.
    - cbn [Den]. intros (dc & dt & de & H1 & H2 & H3 & H4). destruct Hns as (N1 & N2 & N3). exists (pull dc), (pull dt), (pull de). repeat split.
      + apply (IHc r r'); auto. + apply (IHt r r'); auto. + apply (IHe r r'); auto.
      + exact (deq_pull _ _ H4).
    - cbn [Den]. intros (d1 & d2 & H1 & H2 & H3). destruct Hns as (N1 & N2). exists (pull d1), (pull d2). repeat split.
      + apply (IHl r r'); auto. + apply (IHr r r'); auto.
      + exact (deq_pull _ _ H3).
    - destruct Hns.
    - exact (deq_pull _ _).
  Qed.

  Lemma nofsub_rename : forall f, nofsub f -> nofsub (rename f).
  Proof.
    induction f as [| |v|g IH|qq vs g IH|op fs n IH|op l rr IHl IHr|y i g IH|c t e IHc IHt IHe|op l rr IHl IHr|b0|] using form_ind';
      cbn [rename nofsub]; auto.
    - rewrite !nofsub_list. apply Forall_map_mp, IH.
    - rewrite !nofsub_list. intros [Hl Hr]. split; [exact (Forall_map_mp _ _ _ _ IHl Hl)|exact (Forall_map_mp _ _ _ _ IHr Hr)].
    - intros (? & ? & ?); auto.
    - intros (? & ?); auto.
  Qed.

  (** C11: evaluated under two id assignments related by p, the two answers denote the same
      function once assignments are pulled back along p *)
  Theorem C11_rename n m f b1 b2 : nofsub f ->
    eval_f n f = Some b1 -> eval_f m (rename f) = Some b2 ->
    forall s, beval s b2 = beval (fun x => s (p x)) b1.
  Proof.
    intros Hns E1 E2 s.
    destruct (sound n f b1 (nofsub_wf f Hns) E1) as [D1 _].
    destruct (sound m (rename f) b2 (nofsub_wf _ (nofsub_rename f Hns)) E2) as [D2 _].
    assert (D1' : Den empty (rename f) (pull (bden b1))).
    { apply (Den_rename f empty empty); auto; [apply env_all_empty|intros x; exact I]. }
    exact (Den_fun _ _ _ _ D2 D1' s).
  Qed.
End Rename.
Print Assumptions C11_rename.
