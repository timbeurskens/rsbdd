(** C01 (soundness): whatever the evaluator returns denotes the documented truth function,
    and is a reduced ordered diagram. *)
From Coq Require Import List Arith Bool PeanoNat ZArith NArith Lia.
Import ListNotations.
From Rsbdd Require Import Core.Bdd Core.Ops Core.OpsFacts Core.Sem Core.Canon Core.Pres Core.Quant.
From Rsbdd Require Import Lang.Ast Lang.AstFacts Lang.Den Lang.DenFacts Lang.Eval.

Definition bden (b : bdd) : den := fun s => beval s b.

Lemma count_true_den s bs : count_true s bs = count_den (map bden bs) s.
Proof. induction bs as [|x r IH]; cbn [count_true count_den map]; auto. rewrite IH. reflexivity. Qed.

Lemma count_true_range s bs : (0 <= count_true s bs <= Z.of_nat (length bs))%Z.
Proof. induction bs as [|x r IH]; cbn [count_true length]; [lia|]. destruct (beval s x); lia. Qed.

(** the clamp of the literal to len+1 (D3) does not change its meaning *)
Lemma eval_countc_sem s op bs n :
  beval s (eval_countc op bs n) = cop_sem op (count_true s bs) (Z.of_N n).
Proof.
  pose proof (count_true_range s bs) as Hc. unfold eval_countc, clamp.
  destruct op; cbn [cop_sem]; rewrite ?amn_sem, ?aln_sem, ?exn_sem; apply eq_true_iff_eq; rewrite ?Z.leb_le, ?Z.ltb_lt, ?Z.eqb_eq; lia.
Qed.

Lemma eval_countv_sem s op l r :
  beval s (eval_countv op l r) = cop_sem op (count_true s l) (count_true s r).
Proof.
  destruct op; cbn [eval_countv cop_sem].
  - apply count_leq_sem. - apply count_lt_sem. - apply count_geq_sem. - apply count_gt_sem. - apply count_eq_sem.
Qed.

Lemma eval_binop_sem s op x y : beval s (eval_binop op x y) = binop_sem op (beval s x) (beval s y).
Proof.
  destruct op; cbn [eval_binop binop_sem].
  - apply band_sem. - apply bor_sem. - apply bxor_sem. - apply bnor_sem. - apply bnand_sem.
  - apply bimplies_sem. - apply bimplies_sem. - apply beq_sem.
Qed.

Lemma shp_eval_binop op x y : robdd x -> robdd y -> robdd (eval_binop op x y).
Proof.
  intros. destruct op; cbn [eval_binop];
    [apply shp_band|apply shp_bor|apply shp_bxor|apply shp_bnor|apply shp_bnand|apply shp_bimplies|apply shp_bimplies|apply shp_beq]; auto.
Qed.
Lemma shp_eval_countc op bs n : Forall robdd bs -> robdd (eval_countc op bs n).
Proof. intros. unfold eval_countc. destruct op; apply shp_cmp_count; auto. Qed.
Lemma shp_eval_countv op l r : Forall robdd l -> Forall robdd r -> robdd (eval_countv op l r).
Proof.
  intros. change (shp 0 (eval_countv op l r)).
  destruct op; cbn [eval_countv]; unfold count_eq, count_leq, count_lt, count_geq, count_gt, aln, amn; auto with shp.
Qed.

(** the conclusion has the shape of the [FFix] clause of [Den]: a sequence, its length, the same four conditions *)
Lemma fp_opt_spec : forall k s t r, fp_opt k s t = Some r ->
  exists (seq : nat -> bdd) n, seq 0 = s /\ (forall i, i <= n -> t (seq i) = Some (seq (S i))) /\
     (forall i, i < n -> seq (S i) <> seq i) /\ seq (S n) = seq n /\ r = seq n.
Proof.
  induction k as [|k IH]; intros s t r H; cbn [fp_opt] in H; [discriminate|].
  destruct (t s) as [s'|] eqn:Ets; [|discriminate].
  destruct (bdd_eqb_spec s' s) as [E|NE].
  - inversion H; subst. exists (fun _ => r), 0. repeat split; auto. intros; lia.
  - apply IH in H. destruct H as (seq & n & H0 & Hs & Hne & Hst & Hr).
    exists (fun i => match i with 0 => s | S j => seq j end), (S n). repeat split; auto.
    + intros [|i] Hi; [rewrite H0; exact Ets|apply Hs; lia].
    + intros [|i] Hi; [rewrite H0; exact NE|apply Hne; lia].
Qed.

(** the two [FQuant] arms of [eval_f] as one function of the quantifier *)
Definition eval_quant (q : quant) (vs : list nat) (b : bdd) : bdd := match q with QExists => bex vs b | QForall => ball vs b end.
Lemma eval_f_quant n q vs g : eval_f (S n) (FQuant q vs g) = option_map (eval_quant q vs) (eval_f n g).
Proof. destruct q; cbn [eval_f]; destruct (eval_f n g); reflexivity. Qed.
Lemma eval_quant_sem q vs b : robdd b -> deq (bden (eval_quant q vs b)) (fold_right (quant_sem q) (bden b) vs).
Proof. intros Hb s. unfold bden. destruct q; [apply (bex_sem vs b 0 s (proj1 Hb))|apply (ball_sem vs b 0 s (proj1 Hb))]. Qed.
Lemma shp_eval_quant q vs b : robdd b -> robdd (eval_quant q vs b).
Proof. destruct q; [apply shp_bex|apply shp_ball]. Qed.

Lemma sound_list k (IH : forall f b, wf f -> eval_f k f = Some b -> Den empty f (bden b) /\ robdd b) :
  forall fs bs, wfs fs -> map_opt (eval_f k) fs = Some bs -> Dens empty fs (map bden bs) /\ Forall robdd bs.
Proof.
  induction fs as [|g fs IHl]; intros bs Hw H; cbn [map_opt] in H.
  - inversion H; subst. cbn. split; auto.
  - destruct (eval_f k g) as [x|] eqn:E1; [|discriminate].
    destruct (map_opt (eval_f k) fs) as [xs|] eqn:E2; [|discriminate]. inversion H; subst.
    cbn [wfs] in Hw. destruct Hw as [Wg Wr].
    destruct (IH g x Wg E1) as [D1 R1]. destruct (IHl xs Wr eq_refl) as [D2 R2].
    cbn [map Dens]. auto.
Qed.

Theorem sound : forall n f b, wf f -> eval_f n f = Some b -> Den empty f (bden b) /\ robdd b.
Proof.
  induction n as [|n IH]; intros f b Hwf H; [discriminate|].
  destruct f as [| |v|g|q vs g|op fs c|op l r|x init t|c t e|op l r|b0|]; cbn [eval_f] in H.
  1, 2, 12: inversion H; subst; split; [intros s; reflexivity|split; cbn; auto].
  - inversion H; subst. split; [|apply shp_bvar; lia]. cbn [Den empty]. intros s. apply bvar_sem.
  - destruct (eval_f n g) as [y|] eqn:E; [|discriminate]. inversion H; subst.
    destruct (IH g y Hwf E) as [HD Hr]. split; [|apply shp_bnot; auto].
    cbn [Den]. exists (bden y). split; auto. intros s. apply bnot_sem.
  - change (eval_f (S n) (FQuant q vs g) = Some b) in H. rewrite eval_f_quant in H.
    destruct (eval_f n g) as [y|] eqn:E; [|discriminate]. inversion H; subst.
    destruct (IH g y Hwf E) as [HD Hr]. split; [|apply shp_eval_quant; auto].
    cbn [Den]. exists (bden y). split; [apply Den_unbind_empty, HD|apply eval_quant_sem; auto].
  - destruct (map_opt (eval_f n) fs) as [xs|] eqn:E; [|discriminate]. inversion H; subst.
    destruct (sound_list n IH fs xs Hwf E) as [HD HR].
    split; [|apply shp_eval_countc; auto].
    apply Den_countc. exists (map bden xs). split; auto.
    intros s. unfold bden at 1. rewrite eval_countc_sem, count_true_den. reflexivity.
  - destruct (map_opt (eval_f n) l) as [xs|] eqn:E1; [|discriminate].
    destruct (map_opt (eval_f n) r) as [ys|] eqn:E2; [|discriminate]. inversion H; subst.
    destruct Hwf as [Wl Wr].
    destruct (sound_list n IH l xs Wl E1) as [HD1 HR1]. destruct (sound_list n IH r ys Wr E2) as [HD2 HR2].
    split; [|apply shp_eval_countv; auto].
    apply Den_countv. exists (map bden xs), (map bden ys). repeat split; auto.
    intros s. unfold bden at 1. rewrite eval_countv_sem, !count_true_den. reflexivity.
  - apply fp_opt_spec in H. destruct H as (seq & m & H0 & Hs & Hne & Hst & Hr). subst b.
    cbn [wf] in Hwf.
    assert (Hrob : forall i, i <= S m -> robdd (seq i)).
    { apply iterates_all; [rewrite H0; apply shp_bconst|].
      intros i Hi Ri. apply (IH _ _ (wf_replace x (seq i) Ri t Hwf) (Hs i Hi)). }
    split; [|apply Hrob; lia].
    cbn [Den]. exists (fun i => bden (seq i)), m. split; [|split; [|split; [|split]]].
    + intros s. unfold bden. rewrite H0. apply bconst_sem.
    + intros i Hi. specialize (Hs i Hi). apply IH in Hs; [|apply wf_replace; auto; apply Hrob; lia].
      apply subst_den. apply Hs.
    + intros i Hi Hd. apply (Hne i Hi), robdd_canonical; [apply Hrob; lia|apply Hrob; lia|exact Hd].
    + intros s. unfold bden. rewrite Hst. reflexivity.
    + intros s. reflexivity.
  - destruct (eval_f n c) as [x|] eqn:E1; [|discriminate].
    destruct (eval_f n t) as [y|] eqn:E2; [|discriminate].
    destruct (eval_f n e) as [z|] eqn:E3; [|discriminate]. inversion H; subst.
    cbn [wf] in Hwf. destruct Hwf as (W1 & W2 & W3).
    destruct (IH _ _ W1 E1) as [D1 R1]. destruct (IH _ _ W2 E2) as [D2 R2]. destruct (IH _ _ W3 E3) as [D3 R3].
    split; [|apply shp_bite; auto].
    cbn [Den]. exists (bden x), (bden y), (bden z). repeat split; auto. intros s. apply bite_sem.
  - destruct (eval_f n l) as [x|] eqn:E1; [|discriminate].
    destruct (eval_f n r) as [y|] eqn:E2; [|discriminate]. inversion H; subst.
    cbn [wf] in Hwf. destruct Hwf as (W1 & W2).
    destruct (IH _ _ W1 E1) as [D1 R1]. destruct (IH _ _ W2 E2) as [D2 R2].
    split; [|apply shp_eval_binop; auto].
    cbn [Den]. exists (bden x), (bden y). repeat split; auto. intros s. apply eval_binop_sem.
  - inversion H; subst. split; [intros s; reflexivity|exact Hwf].
Qed.
Print Assumptions sound.
