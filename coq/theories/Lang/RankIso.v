(** C11 (shape): when two id assignments are related by a strictly increasing map - in particular when
    arbitrary sparse ids are replaced by their ranks - the evaluated diagrams are the SAME diagram up to
    that renaming of the tested variables.  Proved through canonicity: both sides are reduced and ordered
    and denote the same function (C11_rename), hence are equal (C02).  This is what lets the correspondence
    suite S-text/evalid compare huge 64-bit ids with the model in rank space. *)
From Coq Require Import List Arith PeanoNat Lia.
Import ListNotations.
From Rsbdd Require Import Core.Bdd Core.Canon Core.Essential Lang.Eval Lang.EvalSound Lang.Free Lang.Rename.

Fixpoint bmap (p : nat -> nat) (a : bdd) : bdd :=
  match a with Nd t v f => Nd (bmap p t) (p v) (bmap p f) | _ => a end.

Lemma beval_bmap p s : forall a, beval s (bmap p a) = beval (fun x => s (p x)) a.
Proof. induction a as [| |t IHt v f IHf]; cbn [bmap beval]; auto. rewrite IHt, IHf. reflexivity. Qed.

(** monotonicity is required only between variables of the diagram (and injectivity everywhere): enough for two
    runs of the tokenizer, whose id tables agree in order on the variables of the text and are unrelated elsewhere *)
Section MonoOn.
  Variable p q : nat -> nat.
  Hypothesis q_p : forall x, q (p x) = x.

  Lemma bmap_inj' : forall a b, bmap p a = bmap p b -> a = b.
  Proof.
    induction a as [| |t IHt v f IHf]; destruct b as [| |t' v' f']; cbn [bmap]; try discriminate; auto.
    intros H. inversion H as [[H1 H2 H3]]. apply IHt in H1. apply IHf in H3. apply (p_inj p q q_p) in H2. subst. reflexivity.
  Qed.
  Lemma red_bmap : forall a, red a -> red (bmap p a).
  Proof.
    induction a as [| |t IHt v f IHf]; cbn [bmap red]; auto.
    intros (Hne & Ht & Hf). split; [intros E; apply Hne; apply bmap_inj'; exact E|]. split; auto.
  Qed.
  Lemma ord_bmap_on : forall a lo lo', ord lo a ->
    (forall x y, In x (support a) -> In y (support a) -> x < y -> p x < p y) ->
    (forall x, In x (support a) -> lo' <= p x) -> ord lo' (bmap p a).
  Proof.
    induction a as [| |t IHt v f IHf]; intros lo lo' Ho Hm Hlo; cbn [bmap ord]; auto.
    cbn [ord] in Ho. destruct Ho as (Hv & Ht & Hf).
    assert (Iv : In v (support (Nd t v f))) by (left; reflexivity).
    assert (It : forall x, In x (support t) -> In x (support (Nd t v f))) by (intros x Hx; right; apply in_or_app; auto).
    assert (If : forall x, In x (support f) -> In x (support (Nd t v f))) by (intros x Hx; right; apply in_or_app; auto).
    split; [apply Hlo; exact Iv|]. split.
    - apply (IHt (S v)); auto.
      intros x Hx. pose proof (ord_support_ge t (S v) x Ht Hx). apply Hm; auto.
    - apply (IHf (S v)); auto.
      intros x Hx. pose proof (ord_support_ge f (S v) x Hf Hx). apply Hm; auto.
  Qed.

  Theorem C11_rank_iso_on n m f b1 b2 : nofsub f ->
    eval_f n f = Some b1 -> eval_f m (rename p f) = Some b2 ->
    (forall x y, In x (support b1) -> In y (support b1) -> x < y -> p x < p y) -> b2 = bmap p b1.
  Proof.
    intros Hns E1 E2 Hm.
    destruct (sound n f b1 (nofsub_wf f Hns) E1) as [_ R1].
    destruct (sound m (rename p f) b2 (nofsub_wf _ (nofsub_rename p f Hns)) E2) as [_ R2].
    assert (R1' : robdd (bmap p b1)).
    { destruct R1 as [Ho Hr]. split; [apply (ord_bmap_on b1 0 0 Ho Hm); intros; lia|apply red_bmap; exact Hr]. }
    apply (proj2 (robdd_canonical b2 (bmap p b1) R2 R1')).
    intros s. rewrite beval_bmap. exact (C11_rename p q q_p n m f b1 b2 Hns E1 E2 s).
  Qed.
End MonoOn.
Print Assumptions C11_rank_iso_on.

Section Mono.
  Variable p : nat -> nat.
  Hypothesis p_mono : forall x y, x < y -> p x < p y.

  Lemma p_mono_inj x y : p x = p y -> x = y.
  Proof.
    intros H. destruct (Nat.lt_trichotomy x y) as [L|[E|L]]; auto; apply p_mono in L; lia.
  Qed.
  (** a strictly increasing map on nat has a left inverse *)
  Definition qinv (y : nat) : nat := match find (fun k => Nat.eqb (p k) y) (seq 0 (S y)) with Some k => k | None => 0 end.
  Lemma p_ge x : x <= p x.
  Proof. induction x as [|x IH]; [lia|]. pose proof (p_mono x (S x) ltac:(lia)). lia. Qed.
  Lemma qinv_p x : qinv (p x) = x.
  Proof.
    unfold qinv. destruct (find _ _) as [k|] eqn:E.
    - apply find_some in E. apply p_mono_inj, Nat.eqb_eq, E.
    - assert (H : In x (seq 0 (S (p x)))) by (apply in_seq; pose proof (p_ge x); lia).
      apply (find_none _ _ E) in H. rewrite Nat.eqb_refl in H. discriminate H.
  Qed.

  Theorem C11_rank_iso n m f b1 b2 : nofsub f ->
    eval_f n f = Some b1 -> eval_f m (rename p f) = Some b2 -> b2 = bmap p b1.
  Proof.
    intros Hns E1 E2. apply (C11_rank_iso_on p qinv qinv_p n m f b1 b2 Hns E1 E2). intros x y _ _. apply p_mono.
  Qed.
End Mono.
Print Assumptions C11_rank_iso.
