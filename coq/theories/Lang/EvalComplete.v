(** C01 (completeness): whenever the documented meaning is defined (every fixed point
    stabilises), evaluation terminates and returns a diagram with that meaning. *)
From Coq Require Import List Arith Bool PeanoNat Lia.
Import ListNotations.
From Rsbdd Require Import Core.Bdd Core.Ops Core.OpsFacts Core.Sem Core.Canon Core.Pres Core.Lattice.
From Rsbdd Require Import Lang.Ast Lang.AstFacts Lang.Den Lang.DenFacts Lang.Eval Lang.EvalSound.

Lemma Den_fun : forall f r d d', Den r f d -> Den r f d' -> deq d d'.
Proof.
  induction f as [| |v|g IH|q vs g IH|op fs n IH|op l rr IHl IHr|x i t IH|c t e IHc IHt IHe|op l rr IHl IHr|b0|] using form_ind';
    intros r d d'.
  1-3, 11-12: exact (fun H H' => deq_trans _ _ _ H (deq_sym _ _ H')).
  - cbn [Den]. intros (d1 & H1 & H2) (d1' & H1' & H2'). pose proof (IH _ _ _ H1 H1') as E.
    intros s. rewrite H2, H2', E. reflexivity.
  - cbn [Den]. intros (d1 & H1 & H2) (d1' & H1' & H2'). pose proof (IH _ _ _ H1 H1') as E.
    intros s. rewrite H2, H2'. apply fold_quant_ext, E.
  - rewrite !Den_countc. rewrite Forall_forall in IH. intros (ds & H1 & H2) (ds' & H1' & H2').
    pose proof (Dens_rel r r deq fs ds ds' (fun g Hg => IH g Hg r) H1 H1') as E.
    intros s. rewrite H2, H2', (count_den_ext _ _ E). reflexivity.
  - rewrite !Den_countv. rewrite Forall_forall in IHl, IHr. intros (dl & dr & H1 & H2 & H3) (dl' & dr' & H1' & H2' & H3').
    pose proof (Dens_rel r r deq l dl dl' (fun g Hg => IHl g Hg r) H1 H1') as El.
    pose proof (Dens_rel r r deq rr dr dr' (fun g Hg => IHr g Hg r) H2 H2') as Er.
    intros s. rewrite H3, H3', (count_den_ext _ _ El), (count_den_ext _ _ Er). reflexivity.
  - cbn [Den]. intros (seq & n & H0 & Hs & Hne & Hst & Hd) (seq' & n' & H0' & Hs' & Hne' & Hst' & Hd').
    (* the two runs agree as far as both go, so neither can stop before the other *)
    assert (Heq : forall j, j <= S n -> j <= S n' -> deq (seq j) (seq' j)).
    { induction j as [|j IHj]; intros Hj Hj'.
      - intros s. rewrite H0, H0'. reflexivity.
      - assert (E : deq (seq' j) (seq j)) by (apply deq_sym, IHj; lia).
        eapply IH; [apply Hs; lia|]. apply (Den_bind_deq _ _ _ _ _ _ E), Hs'. lia. }
    assert (n = n').
    { destruct (lt_eq_lt_dec n n') as [[Hlt|He]|Hgt]; auto; exfalso.
      - apply (Hne' n Hlt). intros s. rewrite <- !Heq by lia. apply Hst.
      - apply (Hne n' Hgt). intros s. rewrite !Heq by lia. apply Hst'. }
    subst n'. intros s. rewrite Hd, Hd'. apply Heq; lia.
  - cbn [Den]. intros (dc & dt & de & H1 & H2 & H3 & H4) (dc' & dt' & de' & H1' & H2' & H3' & H4').
    pose proof (IHc _ _ _ H1 H1') as E1. pose proof (IHt _ _ _ H2 H2') as E2. pose proof (IHe _ _ _ H3 H3') as E3.
    intros s. rewrite H4, H4', E1, E2, E3. reflexivity.
  - cbn [Den]. intros (d1 & d2 & H1 & H2 & H3) (d1' & d2' & H1' & H2' & H3').
    pose proof (IHl _ _ _ H1 H1') as E1. pose proof (IHr _ _ _ H2 H2') as E2.
    intros s. rewrite H3, H3', E1, E2. reflexivity.
Qed.

Lemma map_opt_mono {A B} (f g : A -> option B) : (forall x y, f x = Some y -> g x = Some y) ->
  forall l ys, map_opt f l = Some ys -> map_opt g l = Some ys.
Proof.
  intros Hfg. induction l as [|x l IH]; intros ys H; cbn [map_opt] in *; auto.
  destruct (f x) as [y|] eqn:E1; [|discriminate]. destruct (map_opt f l) as [ys'|] eqn:E2; [|discriminate].
  rewrite (Hfg _ _ E1), (IH _ eq_refl). exact H.
Qed.

Lemma eval_mono : forall n f b, eval_f n f = Some b -> eval_f (S n) f = Some b.
Proof.
  induction n as [|n IH]; intros f b H; [discriminate|].
  destruct f as [| |v|g|q vs g|op fs c|op l r|x init t|c t e|op l r|b0|];
    remember (S n) as m; cbn [eval_f]; subst m; cbn [eval_f] in H; auto.
  - destruct (eval_f n g) eqn:E; [|discriminate]. rewrite (IH _ _ E). auto.
  - destruct q; destruct (eval_f n g) eqn:E; try discriminate; rewrite (IH _ _ E); auto.
  - destruct (map_opt (eval_f n) fs) eqn:E; [|discriminate]. rewrite (map_opt_mono _ _ (IH) _ _ E). auto.
  - destruct (map_opt (eval_f n) l) eqn:E1; [|discriminate]. destruct (map_opt (eval_f n) r) eqn:E2; [|discriminate].
    rewrite (map_opt_mono _ _ (IH) _ _ E1), (map_opt_mono _ _ (IH) _ _ E2). auto.
  - eapply fp_opt_mono_le; [| |exact H]; [lia|]. intros y z Hyz. apply IH. exact Hyz.
  - destruct (eval_f n c) eqn:E1; [|discriminate]. destruct (eval_f n t) eqn:E2; [|discriminate].
    destruct (eval_f n e) eqn:E3; [|discriminate]. rewrite (IH _ _ E1), (IH _ _ E2), (IH _ _ E3). auto.
  - destruct (eval_f n l) eqn:E1; [|discriminate]. destruct (eval_f n r) eqn:E2; [|discriminate].
    rewrite (IH _ _ E1), (IH _ _ E2). auto.
Qed.

Lemma eval_mono_le n m f b : eval_f n f = Some b -> n <= m -> eval_f m f = Some b.
Proof. intros H Hle. induction Hle; auto. apply eval_mono; auto. Qed.

Lemma fp_opt_run (t : bdd -> option bdd) (bs : nat -> bdd) : forall N j,
  (forall i, j <= i -> i <= N -> t (bs i) = Some (bs (S i))) ->
  (forall i, j <= i -> i < N -> bs (S i) <> bs i) -> bs (S N) = bs N -> j <= N ->
  fp_opt (S (N - j)) (bs j) t = Some (bs N).
Proof.
  intros N j. remember (N - j) as k. revert j Heqk.
  induction k as [|k IH]; intros j Hk Ht Hne Hst Hj.
  - assert (j = N) by lia. subst j. cbn [fp_opt]. rewrite (Ht N) by lia. rewrite Hst.
    rewrite bdd_eqb_refl. reflexivity.
  - cbn [fp_opt]. rewrite (Ht j) by lia. destruct (bdd_eqb_spec (bs (S j)) (bs j)) as [E|NE].
    + exfalso. apply (Hne j); auto; lia.
    + apply (IH (S j)); [lia| | |exact Hst|lia]; intros i Hi Hi'; [apply Ht|apply Hne]; lia.
Qed.

Lemma map_opt_mono_le n m fs bs : map_opt (eval_f n) fs = Some bs -> n <= m -> map_opt (eval_f m) fs = Some bs.
Proof. intros H Hle. revert H. apply map_opt_mono. intros g b Hb. exact (eval_mono_le _ _ _ _ Hb Hle). Qed.

Lemma map_opt_sound_robdd n fs bs : wfs fs -> map_opt (eval_f n) fs = Some bs -> Forall robdd bs.
Proof. intros Hw H. apply (sound_list n (sound n) fs bs Hw H). Qed.

(** The evaluator as a big-step relation.  One rule per constructor with subformulas; the choice of a common
    fuel is made here, once. *)
Definition evals (f : form) (b : bdd) : Prop := exists n, eval_f n f = Some b.

Lemma evals_list fs bs : Forall2 evals fs bs -> exists n, map_opt (eval_f n) fs = Some bs.
Proof.
  induction 1 as [|g b fs bs [n1 E1] _ [n2 E2]]; [exists 0; reflexivity|].
  exists (max n1 n2). cbn [map_opt]. rewrite (eval_mono_le _ _ _ _ E1), (map_opt_mono_le _ _ _ _ E2) by lia. reflexivity.
Qed.

Lemma evals_not g b : evals g b -> evals (FNot g) (bnot b).
Proof. intros [n E]. exists (S n). cbn [eval_f]. rewrite E. reflexivity. Qed.
Lemma evals_quant q vs g b : evals g b -> evals (FQuant q vs g) (eval_quant q vs b).
Proof. intros [n E]. exists (S n). rewrite eval_f_quant, E. reflexivity. Qed.
Lemma evals_countc op fs c bs : Forall2 evals fs bs -> evals (FCountC op fs c) (eval_countc op bs c).
Proof. intros H. destruct (evals_list _ _ H) as [n E]. exists (S n). cbn [eval_f]. rewrite E. reflexivity. Qed.
Lemma evals_countv op l r xs ys : Forall2 evals l xs -> Forall2 evals r ys -> evals (FCountV op l r) (eval_countv op xs ys).
Proof.
  intros Hl Hr. destruct (evals_list _ _ Hl) as [n1 E1]. destruct (evals_list _ _ Hr) as [n2 E2].
  exists (S (max n1 n2)). cbn [eval_f]. rewrite (map_opt_mono_le _ _ _ _ E1), (map_opt_mono_le _ _ _ _ E2) by lia. reflexivity.
Qed.
Lemma evals_ite c t e x y z : evals c x -> evals t y -> evals e z -> evals (FIte c t e) (bite x y z).
Proof.
  intros [n1 E1] [n2 E2] [n3 E3]. exists (S (max n1 (max n2 n3))). cbn [eval_f].
  rewrite (eval_mono_le _ _ _ _ E1), (eval_mono_le _ _ _ _ E2), (eval_mono_le _ _ _ _ E3) by lia. reflexivity.
Qed.
Lemma evals_bin op l r x y : evals l x -> evals r y -> evals (FBin op l r) (eval_binop op x y).
Proof.
  intros [n1 E1] [n2 E2]. exists (S (max n1 n2)). cbn [eval_f].
  rewrite (eval_mono_le _ _ _ _ E1), (eval_mono_le _ _ _ _ E2) by lia. reflexivity.
Qed.
(** the loop of a fixed point, entered at the diagram [b] *)
Definition evals_loop (x : nat) (t : form) (b r : bdd) : Prop :=
  exists n, fp_opt n b (fun b => eval_f n (replace_var x (FSub b) t)) = Some r.
Lemma evals_loop_stop x t b : evals (replace_var x (FSub b) t) b -> evals_loop x t b b.
Proof. intros [n E]. exists (S n). cbn [fp_opt]. rewrite (eval_mono _ _ _ E), bdd_eqb_refl. reflexivity. Qed.
Lemma evals_loop_step x t b b' r : evals (replace_var x (FSub b) t) b' -> b' <> b -> evals_loop x t b' r -> evals_loop x t b r.
Proof.
  intros [n1 E1] Hne [n2 E2]. exists (S (max n1 n2)). cbn [fp_opt]. rewrite (eval_mono_le _ _ _ _ E1) by lia.
  destruct (bdd_eqb_spec b' b); [contradiction|]. eapply fp_opt_mono_le; [| |exact E2]; [lia|].
  intros y z Hyz. eapply eval_mono_le; [exact Hyz|lia].
Qed.
Lemma evals_fix x init t r : evals_loop x t (bconst init) r -> evals (FFix x init t) r.
Proof. intros [n E]. exists (S n). exact E. Qed.

Lemma eval_total_list m (IH : forall f d, size f < m -> wf f -> Den empty f d -> exists b, evals f b) :
  forall fs ds, sizes fs < m -> wfs fs -> Dens empty fs ds -> exists bs, Forall2 evals fs bs.
Proof.
  induction fs as [|g fs IHl]; intros [|e ds] Hsz Hw HD; cbn [Dens] in HD; try contradiction.
  - exists []. constructor.
  - change (size g + sizes fs < m) in Hsz. destruct Hw as [Wg Wr]. destruct HD as [Dg Dr].
    destruct (IH g e ltac:(lia) Wg Dg) as (b & E). destruct (IHl ds ltac:(lia) Wr Dr) as (bs & Es).
    exists (b :: bs). constructor; auto.
Qed.

Lemma eval_total : forall m f d, size f < m -> wf f -> Den empty f d -> exists b, evals f b.
Proof.
  induction m as [|m IH]; intros f d Hsz Hwf HD; [lia|].
  destruct f as [| |v|g|q vs g|op fs c|op l r|x init t|c t e|op l r|b0|]; cbn [size] in Hsz.
  1-3, 11-12: eexists; exists 1; reflexivity.
  - cbn [Den] in HD. destruct HD as (d1 & H1 & _). destruct (IH g d1) as (b & E); auto; try lia.
    exists (bnot b). apply evals_not, E.
  - cbn [Den] in HD. destruct HD as (d1 & H1 & _). apply Den_unbind_empty in H1.
    destruct (IH g d1) as (b & E); auto; try lia. exists (eval_quant q vs b). apply evals_quant, E.
  - apply Den_countc in HD. destruct HD as (ds & H1 & _). apply (proj1 (wf_countc _ _ _)) in Hwf.
    destruct (eval_total_list m IH fs ds ltac:(unfold sizes; lia) Hwf H1) as (bs & E).
    exists (eval_countc op bs c). apply evals_countc, E.
  - apply Den_countv in HD. destruct HD as (dl & dr & H1 & H2 & _). apply (proj1 (wf_countv _ _ _)) in Hwf. destruct Hwf as [Wl Wr].
    destruct (eval_total_list m IH l dl ltac:(unfold sizes; lia) Wl H1) as (xs & E1).
    destruct (eval_total_list m IH r dr ltac:(unfold sizes; lia) Wr H2) as (ys & E2).
    exists (eval_countv op xs ys). apply evals_countv; auto.
  - cbn [Den] in HD. destruct HD as (seq & N & H0 & Hs & Hne & Hst & _). cbn [wf] in Hwf.
    (* the loop runs along seq: entered at index j with a diagram that denotes seq j, it steps to one that denotes
       seq (S j) (induction hypothesis on the substituted body, then soundness and uniqueness of denotations);
       by canonicity that is the same diagram when j = N, and another one before *)
    assert (Hstep : forall j b, j <= N -> robdd b -> deq (bden b) (seq j) ->
              exists b', evals (replace_var x (FSub b) t) b' /\ robdd b' /\ deq (bden b') (seq (S j))).
    { intros j b Hj Hr Hb. pose proof (wf_replace x b Hr t Hwf) as Hw.
      assert (HDen : Den empty (replace_var x (FSub b) t) (seq (S j))).
      { apply subst_den, (Den_bind_deq _ _ _ _ _ _ (deq_sym _ _ Hb)), Hs, Hj. }
      destruct (IH (replace_var x (FSub b) t) (seq (S j)) ltac:(rewrite size_replace; lia) Hw HDen) as (b' & n & E).
      destruct (sound n _ b' Hw E) as [D' Hr']. exists b'. split; [exists n; exact E|]. split; [exact Hr'|exact (Den_fun _ _ _ _ D' HDen)]. }
    assert (Hloop : forall k j b, j + k = N -> robdd b -> deq (bden b) (seq j) -> exists r, evals_loop x t b r).
    { induction k as [|k IHk]; intros j b Hj Hr Hb; destruct (Hstep j b ltac:(lia) Hr Hb) as (b' & E & Hr' & Hb').
      - replace j with N in * by lia. exists b. apply evals_loop_stop. replace b with b' at 2; [exact E|].
        apply robdd_canonical; auto. intros s. exact (eq_trans (Hb' s) (eq_trans (Hst s) (eq_sym (Hb s)))).
      - destruct (IHk (S j) b' ltac:(lia) Hr' Hb') as (r & El). exists r. apply (evals_loop_step x t b b'); auto.
        intros ->. apply (Hne j ltac:(lia)). exact (deq_trans _ _ _ (deq_sym _ _ Hb') Hb). }
    destruct (Hloop N 0 (bconst init) eq_refl (shp_bconst 0 init)) as (r & El).
    + intros s. rewrite (H0 s). apply bconst_sem.
    + exists r. apply evals_fix, El.
  - cbn [Den] in HD. destruct HD as (dc & dt & de & H1 & H2 & H3 & _). cbn [wf] in Hwf. destruct Hwf as (W1 & W2 & W3).
    destruct (IH c dc) as (x & E1); auto; try lia. destruct (IH t dt) as (y & E2); auto; try lia.
    destruct (IH e de) as (z & E3); auto; try lia. exists (bite x y z). apply evals_ite; auto.
  - cbn [Den] in HD. destruct HD as (d1 & d2 & H1 & H2 & _). cbn [wf] in Hwf. destruct Hwf as (W1 & W2).
    destruct (IH l d1) as (x & E1); auto; try lia. destruct (IH r d2) as (y & E2); auto; try lia.
    exists (eval_binop op x y). apply evals_bin; auto.
Qed.

Theorem complete : forall m f d, size f < m -> wf f -> Den empty f d ->
  exists n b, eval_f n f = Some b /\ deq (bden b) d.
Proof.
  intros m f d Hsz Hwf HD. destruct (eval_total m f d Hsz Hwf HD) as (b & n & E). exists n, b. split; [exact E|].
  destruct (sound n f b Hwf E) as [D _]. exact (Den_fun f empty _ _ D HD).
Qed.
Print Assumptions complete.

Theorem C01 f : wf f ->
  (forall n b, eval_f n f = Some b -> Den empty f (bden b) /\ robdd b) /\
  (forall d, Den empty f d -> exists n b, eval_f n f = Some b /\ deq (bden b) d).
Proof.
  intros Hwf. split; [intros n b; apply sound; auto|].
  intros d HD. apply (complete (S (size f))); auto.
Qed.
