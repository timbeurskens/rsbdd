(** C06 for bodies without inner fixed points: they are trivially in the positive fragment, so the totality hypothesis is automatic. *)
From Rsbdd Require Import Core.Bdd.
From Rsbdd Require Import Lang.Ast Lang.Den Lang.Eval Lang.EvalSound Lang.Free Lang.FSem Lang.FixLang Lang.Mono Lang.FixNested.

Theorem C06_lfp_fixfree X T : nofsub T -> nofix T ->
  (forall d1 d2 e1 e2, dle d1 d2 -> Den (bind empty X d1) T e1 -> Den (bind empty X d2) T e2 -> dle e1 e2) ->
  exists n r, eval_f n (FFix X false T) = Some r /\ robdd r /\
    Den (bind empty X (bden r)) T (bden r) /\
    forall d e, Den (bind empty X d) T e -> dle e d -> dle (bden r) d.
Proof. intros Hns Hnf Hmono. apply C06_lfp; auto; [apply nofsub_wf, Hns|apply posfix_body_total, nofix_posfix, Hnf; exact Hns]. Qed.
Theorem C06_gfp_fixfree X T : nofsub T -> nofix T ->
  (forall d1 d2 e1 e2, dle d1 d2 -> Den (bind empty X d1) T e1 -> Den (bind empty X d2) T e2 -> dle e1 e2) ->
  exists n r, eval_f n (FFix X true T) = Some r /\ robdd r /\
    Den (bind empty X (bden r)) T (bden r) /\
    forall d e, Den (bind empty X d) T e -> dle d e -> dle d (bden r).
Proof. intros Hns Hnf Hmono. apply C06_gfp; auto; [apply nofsub_wf, Hns|apply posfix_body_total, nofix_posfix, Hnf; exact Hns]. Qed.
Print Assumptions C06_lfp_fixfree.
