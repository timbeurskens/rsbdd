(** C06 (language level): for a body that is monotone in its bound name, [lfp X # T] and [gfp X # T] are evaluated
    in finitely many steps, to the least and to the greatest fixed point of the body's meaning. *)
From Coq Require Import List Bool PeanoNat.
Import ListNotations.
From Rsbdd Require Import Core.Bdd Core.Lattice.
From Rsbdd Require Import Lang.Ast Lang.AstFacts Lang.Den Lang.DenFacts Lang.Eval Lang.EvalSound Lang.EvalComplete Lang.Free Lang.FreeGen.

Section Kleene.
  Variable U : list nat.
  Variable t : nat -> bdd -> option bdd.
  Hypothesis t_fuel : forall n m b x, t n b = Some x -> n <= m -> t m b = Some x.
  Hypothesis t_total : forall b, good U b -> exists n b', t n b = Some b' /\ good U b'.
  Hypothesis t_mono : forall n m a b a' b', good U a -> good U b -> ble a b ->
    t n a = Some a' -> t m b = Some b' -> ble a' b'.

  (** both directions are one call of [Lattice.iterate]: the order is [ble] read upwards for [i = false], downwards for
      [i = true], the measure is [cnt i U]; the fourth conjunct is induction along the iteration *)
  Lemma fp_iterates i :
    exists n r, fp_opt n (bconst i) (t n) = Some r /\ good U r /\ t n r = Some r /\
      (forall P : bdd -> Prop, P (bconst i) -> (forall x m x', good U x -> P x -> t m x = Some x' -> P x') -> P r).
  Proof.
    apply (iterate (good U) t (fun a b => if i then ble b a else ble a b) (cnt i U) t_fuel t_total).
    - intros n m a b a' b' Ha Hb Hab Ea Eb. destruct i; [exact (t_mono m n b a b' a' Hb Ha Hab Eb Ea)|exact (t_mono n m a b a' b' Ha Hb Hab Ea Eb)].
    - intros a b [Ra Sa] [Rb Sb]. apply cnt_strict; assumption.
    - destruct i; (split; [split; exact I|intros x []]).
    - intros n b' _. destruct i; intros s Hs; [reflexivity|discriminate].
  Qed.

  Theorem lfp_iterates :
    exists n r, fp_opt n F (t n) = Some r /\ good U r /\ t n r = Some r /\
      (forall P : bdd -> Prop, P F -> (forall x m x', good U x -> P x -> t m x = Some x' -> P x') -> P r).
  Proof. exact (fp_iterates false). Qed.
End Kleene.

(** [ble a b] is [dle (bden a) (bden b)] by conversion; [tr_mono] passes one for the other *)
Definition dle (d e : den) : Prop := forall s, d s = true -> e s = true.

(** every variable occurrence of f, free or bound (names listed by a binder only are not occurrences) *)
Fixpoint all_vars (f : form) : list nat :=
  match f with
  | FVar v => [v]
  | FNot g | FQuant _ _ g | FFix _ _ g => all_vars g
  | FCountC _ fs _ => flat_map all_vars fs
  | FCountV _ l r => flat_map all_vars l ++ flat_map all_vars r
  | FIte a b c => all_vars a ++ all_vars b ++ all_vars c
  | FBin _ a b => all_vars a ++ all_vars b
  | _ => []
  end.

Lemma vocc_all_vars : forall f x, vocc f x = true -> In x (all_vars f).
Proof.
  induction f as [| |v|g IH|q vs g IH|op fs n IH|op l rr IHl IHr|z i g IH|c t e IHc IHt IHe|op l rr IHl IHr|b0|] using form_ind';
    intros x; cbn [vocc all_vars]; try discriminate; auto.
  - intros H. apply Nat.eqb_eq in H. left. exact H.
  - destruct (negb (mem_nat x vs)); [auto|discriminate].
  - rewrite existsb_exists. intros (g & Hg & Hv). apply in_flat_map. exists g. split; auto.
    rewrite Forall_forall in IH. apply IH; auto.
  - rewrite orb_true_iff, !existsb_exists. rewrite !Forall_forall in *.
    intros [(g & Hg & Hv)|(g & Hg & Hv)]; apply in_or_app; [left|right]; apply in_flat_map; exists g; split; auto.
  - rewrite andb_true_iff. intros [_ H]. auto.
  - rewrite !orb_true_iff. intros [[H|H]|H]; apply in_or_app; auto; right; apply in_or_app; auto.
  - rewrite !orb_true_iff. intros [H|H]; apply in_or_app; auto.
Qed.

Lemma nofsub_submentions : forall f x, nofsub f -> submentions f x = false.
Proof.
  intros f x Hns. destruct (submentions f x) eqn:E; auto.
  apply submentions_sub_vars in E. rewrite (nofsub_sub_vars f Hns) in E. destruct E.
Qed.

Section LFP.
  Variable X : nat.
  Variable T : form.
  (** the body may contain embedded diagrams (it does when an enclosing fixed point is being iterated) *)
  Hypothesis T_wf : wf T.
  (** the body can be evaluated on every diagram (true for fixed-point-free bodies, and for bodies
      whose inner fixed points are themselves monotone) *)
  Hypothesis T_total : forall b, robdd b -> exists n b', eval_f n (replace_var X (FSub b) T) = Some b'.
  Hypothesis T_mono : forall d1 d2 e1 e2, dle d1 d2 ->
    Den (bind empty X d1) T e1 -> Den (bind empty X d2) T e2 -> dle e1 e2.

  Definition U := all_vars T ++ sub_vars T.
  Definition tr (n : nat) (b : bdd) : option bdd := eval_f n (replace_var X (FSub b) T).

  Lemma tr_good n b b' : good U b -> tr n b = Some b' -> good U b'.
  Proof.
    intros [Hr Hs] He. unfold tr in He.
    assert (Hwf : wf (replace_var X (FSub b) T)) by (apply wf_replace; auto).
    split; [apply (sound _ _ _ Hwf He)|].
    intros x Hx. destruct (eval_support _ _ _ Hwf He x Hx) as [H|H].
    - apply vocc_replace in H. destruct H as [H _]. apply in_or_app. left. apply vocc_all_vars. exact H.
    - apply submentions_replace in H. destruct H as [H|H]; [|apply Hs; exact H].
      apply in_or_app. right. apply submentions_sub_vars. exact H.
  Qed.

  Lemma tr_den n b b' : robdd b -> tr n b = Some b' -> Den (bind empty X (bden b)) T (bden b').
  Proof. intros Hr He. apply subst_den, (sound n _ b' (wf_replace X b Hr T T_wf) He). Qed.

  Lemma tr_fuel n m b x : tr n b = Some x -> n <= m -> tr m b = Some x.
  Proof. apply eval_mono_le. Qed.
  Lemma tr_total b : good U b -> exists n b', tr n b = Some b' /\ good U b'.
  Proof. intros Hb. destruct (T_total b (proj1 Hb)) as (n & b' & He). exists n, b'. split; [exact He|exact (tr_good n b b' Hb He)]. Qed.
  Lemma tr_mono n m a b a' b' : good U a -> good U b -> ble a b -> tr n a = Some a' -> tr m b = Some b' -> ble a' b'.
  Proof.
    intros Ha Hb Hab Ea Eb. exact (T_mono (bden a) (bden b) (bden a') (bden b') Hab (tr_den n a a' (proj1 Ha) Ea) (tr_den m b b' (proj1 Hb) Eb)).
  Qed.

  (** either direction: from [bconst i], to the extremal fixed point on that side *)
  Lemma fix_evaluates i :
    exists n r, eval_f n (FFix X i T) = Some r /\ robdd r /\ Den (bind empty X (bden r)) T (bden r) /\
      forall d e, Den (bind empty X d) T e -> (if i then dle d e else dle e d) -> if i then dle d (bden r) else dle (bden r) d.
  Proof.
    destruct (fp_iterates U tr tr_fuel tr_total tr_mono i) as (n & r & Hn & Hr & Hfix & Hinv).
    exists (S n), r. split; [exact Hn|]. split; [apply Hr|]. split; [exact (tr_den n r r (proj1 Hr) Hfix)|].
    intros d e HD Hde. apply (Hinv (fun x => if i then dle d (bden x) else dle (bden x) d)).
    - destruct i; intros s Hs; [reflexivity|discriminate].
    - intros x m x' Hx Px Ex. pose proof (tr_den m x x' (proj1 Hx) Ex) as Dx. destruct i; intros s Hs.
      + exact (T_mono d (bden x) e (bden x') Px HD Dx s (Hde s Hs)).
      + apply Hde. exact (T_mono (bden x) d (bden x') e Px Dx HD s Hs).
  Qed.

  Theorem C06_lfp :
    exists n r, eval_f n (FFix X false T) = Some r /\ robdd r /\
      Den (bind empty X (bden r)) T (bden r) /\                                   (* a fixed point of the body *)
      forall d e, Den (bind empty X d) T e -> dle e d -> dle (bden r) d.           (* below every pre-fixed point *)
  Proof. exact (fix_evaluates false). Qed.
End LFP.

Section GFP.
  Variable X : nat.
  Variable T0 : form.
  Hypothesis T_wf : wf T0.
  Hypothesis T_total : forall b, robdd b -> exists n b', eval_f n (replace_var X (FSub b) T0) = Some b'.
  Hypothesis T_mono : forall d1 d2 e1 e2, dle d1 d2 ->
    Den (bind empty X d1) T0 e1 -> Den (bind empty X d2) T0 e2 -> dle e1 e2.

  Theorem C06_gfp :
    exists n r, eval_f n (FFix X true T0) = Some r /\ robdd r /\
      Den (bind empty X (bden r)) T0 (bden r) /\                                  (* a fixed point of the body *)
      forall d e, Den (bind empty X d) T0 e -> dle d e -> dle d (bden r).          (* above every post-fixed point *)
  Proof. exact (fix_evaluates X T0 T_wf T_total T_mono true). Qed.
End GFP.
Print Assumptions C06_lfp.
Print Assumptions C06_gfp.
