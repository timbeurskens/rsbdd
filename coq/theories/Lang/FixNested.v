(** C06 for bodies with inner fixed points.  A formula in which every fixed-point binder (inner ones
    included) binds a name that occurs only positively in its own body - nested and mixed lfp / gfp,
    shadowing, quantifiers and counting inside - is evaluated in finitely many steps ([posfix_total]);
    with [mono_posfix] its meaning is monotone in every positively occurring outer name, so [lfp X # T] /
    [gfp X # T] terminate at the least / greatest fixed point of the body for every such T. *)
From Coq Require Import List Bool Lia.
Import ListNotations.
From Rsbdd Require Import Core.Bdd.
From Rsbdd Require Import Lang.Ast Lang.AstFacts Lang.Den Lang.Eval Lang.EvalSound Lang.EvalComplete Lang.Free
  Lang.FixLang Lang.Mono.

Lemma forallb_map_impl {A} (f : A -> A) (p : A -> bool) l : Forall (fun a => p a = true -> p (f a) = true) l ->
  forallb p l = true -> forallb p (map f l) = true.
Proof. induction 1 as [|a l Ha _ IH]; cbn [map forallb]; [auto|]. rewrite !andb_true_iff. intros [H1 H2]. auto. Qed.

(** substituting a diagram for a name removes occurrences, so polarities are kept *)
Lemma pos_replace X b : forall t y p, pos y p t = true -> pos y p (replace_var X (FSub b) t) = true.
Proof.
  induction t as [| |v|g IH|q vs g IH|op fs n IH|op l rr IHl IHr|z i g IH|c t e IHc IHt IHe|op l rr IHl IHr|b0|] using form_ind';
    intros y p; cbn [replace_var]; auto.
  - destruct (Nat.eqb v X); auto.
  - cbn [pos]. apply IH.
  - destruct (mem_nat X vs); auto. cbn [pos]. destruct (mem_nat y vs); auto.
  - rewrite !pos_countc. apply at_var_impl. intros q0. apply forallb_map_impl. revert IH. apply Forall_impl. auto.
  - rewrite !pos_countv. intros [A B].
    split; [revert A|revert B]; apply at_var_impl; intros q0; apply forallb_map_impl; (eapply Forall_impl; [|eassumption]); auto.
  - destruct (Nat.eqb z X); auto. cbn [pos]. destruct (Nat.eqb z y); auto.
  - rewrite !pos_ite. cbn [at_var]. intros ((A & A') & B & C). auto 6.
  - rewrite !pos_bin. intros [A B]. split; [revert A|revert B]; apply at_var_impl; auto.
Qed.

Lemma posfix_replace X b : forall t, posfix t = true -> posfix (replace_var X (FSub b) t) = true.
Proof.
  induction t as [| |v|g IH|q vs g IH|op fs n IH|op l rr IHl IHr|z i g IH|c t e IHc IHt IHe|op l rr IHl IHr|b0|] using form_ind';
    cbn [replace_var]; auto.
  - destruct (Nat.eqb v X); auto.
  - destruct (mem_nat X vs); auto.
  - cbn [posfix]. apply forallb_map_impl, IH.
  - cbn [posfix]. rewrite !andb_true_iff. intros [H1 H2]. split; apply forallb_map_impl; assumption.
  - destruct (Nat.eqb z X); auto. cbn [posfix]. generalize (pos_replace X b g z true). rewrite !andb_true_iff. tauto.
  - cbn [posfix]. rewrite !andb_true_iff. tauto.
  - cbn [posfix]. rewrite !andb_true_iff. tauto.
Qed.

Lemma Forall_ex_Forall2 {A B} (R : A -> B -> Prop) l : Forall (fun a => exists b, R a b) l -> exists l', Forall2 R l l'.
Proof. induction 1 as [|a l [b Hb] _ [l' Hl']]; [exists []|exists (b :: l')]; constructor; assumption. Qed.

Theorem posfix_total : forall k f, size f <= k -> wf f -> posfix f = true -> exists n b, eval_f n f = Some b.
Proof.
  enough (H : forall k f, size f <= k -> wf f -> posfix f = true -> exists b, evals f b).
  { intros k f Hsz Hwf Hpf. destruct (H k f Hsz Hwf Hpf) as (b & n & E). exists n, b. exact E. }
  induction k as [|k IHk]; intros f Hsz Hwf Hpf; [pose proof (size_pos f); lia|].
  assert (IHl : forall fs, sizes fs <= k -> wfs fs -> forallb posfix fs = true -> exists bs, Forall2 evals fs bs).
  { intros fs Hs Hw Hp. apply wfs_Forall in Hw. rewrite Forall_forall in Hw. rewrite forallb_forall in Hp.
    apply Forall_ex_Forall2, Forall_forall. intros g Hg. pose proof (size_in g fs Hg). apply IHk; auto. lia. }
  destruct f as [| |v|g|q vs g|op fs c|op l rr|X i g|c t e|op a b|b0|]; cbn [size] in Hsz; cbn [posfix] in Hpf.
  1-3, 11-12: eexists; exists 1; reflexivity.
  - destruct (IHk g) as (x & E); auto; [lia|]. eexists. apply evals_not, E.
  - destruct (IHk g) as (x & E); auto; [lia|]. eexists. apply evals_quant, E.
  - apply wf_countc in Hwf. destruct (IHl fs) as (bs & E); auto; [unfold sizes; lia|]. eexists. apply evals_countc, E.
  - apply (proj1 (wf_countv op l rr)) in Hwf. destruct Hwf as [Wl Wr]. apply andb_true_iff in Hpf. destruct Hpf as [Pl Pr].
    destruct (IHl l) as (xs & El); auto; [unfold sizes; lia|]. destruct (IHl rr) as (ys & Er); auto; [unfold sizes; lia|].
    eexists. apply evals_countv; eassumption.
  - (* an inner fixed point: the iteration of FixLang applies, with totality of the body from the induction hypothesis
       and monotonicity from positivity *)
    apply andb_true_iff in Hpf. destruct Hpf as [HposX Hpg]. cbn [wf] in Hwf.
    destruct (fix_evaluates X g Hwf) with (i := i) as (n & r & Hr & _).
    + intros b Hb. destruct (IHk (replace_var X (FSub b) g)) as (b' & n & E); [rewrite size_replace; lia|apply wf_replace; auto|apply posfix_replace, Hpg|].
      exists n, b'. exact E.
    + exact (mono_posfix X g Hpg true HposX empty).
    + exists r, n. exact Hr.
  - cbn [wf] in Hwf. destruct Hwf as (Wc & Wt & We).
    apply andb_true_iff in Hpf. destruct Hpf as [Hpf Pe]. apply andb_true_iff in Hpf. destruct Hpf as [Pc Pt].
    destruct (IHk c) as (x & Ec); auto; [lia|]. destruct (IHk t) as (y & Et); auto; [lia|]. destruct (IHk e) as (z & Ee); auto; [lia|].
    eexists. apply evals_ite; eassumption.
  - cbn [wf] in Hwf. destruct Hwf as (Wa & Wb). apply andb_true_iff in Hpf. destruct Hpf as [Pa Pb].
    destruct (IHk a) as (x & Ea); auto; [lia|]. destruct (IHk b) as (y & Eb); auto; [lia|].
    eexists. apply evals_bin; eassumption.
Qed.

Lemma posfix_body_total X T : nofsub T -> posfix T = true ->
  forall b, robdd b -> exists n b', eval_f n (replace_var X (FSub b) T) = Some b'.
Proof.
  intros Hns Hpf b Hb. apply (posfix_total (size T)); [rewrite size_replace; lia| |apply posfix_replace, Hpf].
  apply wf_replace; auto. apply nofsub_wf, Hns.
Qed.

Theorem C06_lfp_nested X T : nofsub T -> posfix T = true -> pos X true T = true ->
  exists n r, eval_f n (FFix X false T) = Some r /\ robdd r /\ Den (bind empty X (bden r)) T (bden r) /\
    forall d e, Den (bind empty X d) T e -> dle e d -> dle (bden r) d.
Proof.
  intros Hns Hpf Hp. apply C06_lfp; [apply nofsub_wf, Hns|apply posfix_body_total; assumption|exact (mono_posfix X T Hpf true Hp empty)].
Qed.
Theorem C06_gfp_nested X T : nofsub T -> posfix T = true -> pos X true T = true ->
  exists n r, eval_f n (FFix X true T) = Some r /\ robdd r /\ Den (bind empty X (bden r)) T (bden r) /\
    forall d e, Den (bind empty X d) T e -> dle d e -> dle d (bden r).
Proof.
  intros Hns Hpf Hp. apply C06_gfp; [apply nofsub_wf, Hns|apply posfix_body_total; assumption|exact (mono_posfix X T Hpf true Hp empty)].
Qed.

(** every formula of the positive fragment (no embedded diagram, every binder positive) has a value *)
Corollary posfix_evaluates f : nofsub f -> posfix f = true -> exists n b, eval_f n f = Some b /\ Den empty f (bden b) /\ robdd b.
Proof.
  intros Hns Hpf. destruct (posfix_total (size f) f (le_n _) (nofsub_wf f Hns) Hpf) as (n & b & Hb).
  exists n, b. split; [exact Hb|]. exact (sound n f b (nofsub_wf f Hns) Hb).
Qed.
Print Assumptions C06_lfp_nested.
Print Assumptions posfix_evaluates.
