(** Induction principle for the nested type [form]; [wf] and [size] over the operand lists and under [replace_var]. *)
From Coq Require Import List Arith PeanoNat Lia.
Import ListNotations.
From Rsbdd Require Import Core.Bdd Lang.Ast.

Section form_ind'.
  Variable P : form -> Prop.
  Hypothesis HFalse : P FFalse.
  Hypothesis HTrue : P FTrue.
  Hypothesis HVar : forall v, P (FVar v).
  Hypothesis HNot : forall f, P f -> P (FNot f).
  Hypothesis HQuant : forall q vs f, P f -> P (FQuant q vs f).
  Hypothesis HCountC : forall op fs n, Forall P fs -> P (FCountC op fs n).
  Hypothesis HCountV : forall op l r, Forall P l -> Forall P r -> P (FCountV op l r).
  Hypothesis HFix : forall v i f, P f -> P (FFix v i f).
  Hypothesis HIte : forall c t e, P c -> P t -> P e -> P (FIte c t e).
  Hypothesis HBin : forall op l r, P l -> P r -> P (FBin op l r).
  Hypothesis HSub : forall b, P (FSub b).
  Hypothesis HRef : P FRef.

  Fixpoint form_ind' (f : form) : P f :=
    match f with
    | FFalse => HFalse
    | FTrue => HTrue
    | FVar v => HVar v
    | FNot g => HNot g (form_ind' g)
    | FQuant q vs g => HQuant q vs g (form_ind' g)
    | FCountC op fs n =>
        HCountC op fs n ((fix go (l : list form) : Forall P l :=
                            match l with [] => Forall_nil P | x :: r => Forall_cons x (form_ind' x) (go r) end) fs)
    | FCountV op l r =>
        HCountV op l r
          ((fix go (l : list form) : Forall P l :=
              match l with [] => Forall_nil P | x :: r => Forall_cons x (form_ind' x) (go r) end) l)
          ((fix go (l : list form) : Forall P l :=
              match l with [] => Forall_nil P | x :: r => Forall_cons x (form_ind' x) (go r) end) r)
    | FFix v i g => HFix v i g (form_ind' g)
    | FIte c t e => HIte c t e (form_ind' c) (form_ind' t) (form_ind' e)
    | FBin op l r => HBin op l r (form_ind' l) (form_ind' r)
    | FSub b => HSub b
    | FRef => HRef
    end.
End form_ind'.

Definition sizes (l : list form) : nat := fold_right (fun g acc => size g + acc) 0 l.

Lemma Forall_nested (P : form -> Prop) l :
  (fix go (l : list form) : Prop := match l with [] => True | g :: r => P g /\ go r end) l <-> Forall P l.
Proof. induction l as [|g r IH]; [split; auto|]. rewrite IH. split; [intros [? ?]; constructor; auto|intros H; inversion H; auto]. Qed.
Lemma wf_countc op fs n : wf (FCountC op fs n) <-> wfs fs.
Proof. reflexivity. Qed.
Lemma wf_countv op l r : wf (FCountV op l r) <-> wfs l /\ wfs r.
Proof. reflexivity. Qed.
Lemma wfs_Forall l : wfs l <-> Forall wf l.
Proof. apply (Forall_nested wf). Qed.

Lemma Forall_map_mp {A B} (P : A -> Prop) (Q : B -> Prop) (h : A -> B) l :
  Forall (fun a => P a -> Q (h a)) l -> Forall P l -> Forall Q (map h l).
Proof. induction 1 as [|a l Ha _ IH]; intros HP; inversion HP; constructor; auto. Qed.

Lemma size_pos f : 1 <= size f.
Proof. destruct f; cbn [size]; lia. Qed.
Lemma size_in g l : In g l -> size g <= sizes l.
Proof. unfold sizes. induction l as [|x r IH]; intros H; [destruct H|]. cbn [fold_right]. destruct H as [->|H]; [lia|]. specialize (IH H). lia. Qed.

Lemma size_replace x b : forall t, size (replace_var x (FSub b) t) = size t.
Proof.
  induction t as [| |v|g IH|q vs g IH|op fs n IH|op l r IHl IHr|v i g IH|c t e IHc IHt IHe|op l r IHl IHr|b0|] using form_ind';
    cbn [replace_var size]; auto.
  - destruct (Nat.eqb v x); reflexivity.
  - destruct (mem_nat x vs); cbn [size]; auto.
  - f_equal. induction IH as [|g r Hg Hr IH']; cbn [map fold_right]; auto.
  - f_equal. f_equal.
    + induction IHl as [|g r' Hg Hr IH']; cbn [map fold_right]; auto.
    + induction IHr as [|g r' Hg Hr IH']; cbn [map fold_right]; auto.
  - destruct (Nat.eqb v x); cbn [size]; auto.
Qed.

Lemma wf_replace x b : robdd b -> forall t, wf t -> wf (replace_var x (FSub b) t).
Proof.
  intros Hb.
  induction t as [| |v|g IH|q vs g IH|op fs n IH|op l r IHl IHr|v i g IH|c t e IHc IHt IHe|op l r IHl IHr|b0|] using form_ind';
    cbn [replace_var]; auto.
  - destruct (Nat.eqb v x); cbn [wf]; auto.
  - destruct (mem_nat x vs); cbn [wf]; auto.
  - rewrite !wf_countc, !wfs_Forall. apply Forall_map_mp, IH.
  - rewrite !wf_countv, !wfs_Forall. intros [Hl Hr]. split; [exact (Forall_map_mp _ _ _ _ IHl Hl)|exact (Forall_map_mp _ _ _ _ IHr Hr)].
  - destruct (Nat.eqb v x); cbn [wf]; auto.
  - cbn [wf]. intros (? & ? & ?); auto.
  - cbn [wf]. intros (? & ?); auto.
Qed.
