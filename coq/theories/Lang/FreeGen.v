(** C09/C06 support: semantic independence ([Free.Den_indep_fv]) in the terms of [vocc] and [submentions], for formulas that
    embed diagrams (the iterates substituted during fixed-point evaluation). *)
From Coq Require Import List Arith Bool PeanoNat.
Import ListNotations.
From Rsbdd Require Import Core.Bdd.
From Rsbdd Require Import Lang.Ast Lang.AstFacts Lang.Den Lang.Eval Lang.EvalSound Lang.Free.

(** variable occurrences not under a binder of the same name; embedded diagrams do not count:
    [Free.fv] with [FSub _ => false], [var_is_free] with [FRef => false] ([fv_vocc_eq]) *)
Fixpoint vocc (f : form) (x : nat) : bool :=
  match f with
  | FVar v => Nat.eqb v x
  | FQuant _ vs g => if negb (mem_nat x vs) then vocc g x else false
  | FIte a b c => vocc a x || vocc b x || vocc c x
  | FNot g => vocc g x
  | FBin _ a b => vocc a x || vocc b x
  | FCountC _ fs _ => existsb (fun g => vocc g x) fs
  | FCountV _ l r => existsb (fun g => vocc g x) l || existsb (fun g => vocc g x) r
  | FFix v _ g => negb (Nat.eqb v x) && vocc g x
  | _ => false
  end.
(** some embedded diagram mentions x (binders ignored: a conservative over-approximation) *)
Fixpoint submentions (f : form) (x : nat) : bool :=
  match f with
  | FSub b => mem_nat x (support b)
  | FNot g | FQuant _ _ g | FFix _ _ g => submentions g x
  | FCountC _ fs _ => existsb (fun g => submentions g x) fs
  | FCountV _ l r => existsb (fun g => submentions g x) l || existsb (fun g => submentions g x) r
  | FIte a b c => submentions a x || submentions b x || submentions c x
  | FBin _ a b => submentions a x || submentions b x
  | _ => false
  end.

Lemma existsb_map {A B} (p : B -> bool) (g : A -> B) l : existsb p (map g l) = existsb (fun a => p (g a)) l.
Proof. induction l as [|a l IH]; cbn [map existsb]; auto. rewrite IH. reflexivity. Qed.

Lemma existsb_impl {A} (p q : A -> bool) l : Forall (fun a => p a = true -> q a = true) l -> existsb p l = true -> existsb q l = true.
Proof.
  induction 1 as [|a l Ha Hl IH]; cbn [existsb]; auto. rewrite !orb_true_iff. intros [H|H]; auto.
Qed.
Lemma existsb_andb {A} c (p q : A -> bool) l : Forall (fun a => p a = c && q a) l -> existsb p l = c && existsb q l.
Proof. induction 1 as [|a l Ha _ IH]; cbn [existsb]; [|rewrite Ha, IH]; destruct c; reflexivity. Qed.
Lemma existsb_ext_Forall {A} (p q : A -> bool) l : Forall (fun a => p a = q a) l -> existsb p l = existsb q l.
Proof. apply (existsb_andb true). Qed.
Lemma existsb_false_mp {A} (s : A -> bool) (Q : A -> Prop) l : Forall (fun a => s a = false -> Q a) l -> existsb s l = false -> Forall Q l.
Proof. induction 1 as [|a l Ha _ IH]; cbn [existsb]; [constructor|]. intros [H1 H2]%orb_false_iff. constructor; auto. Qed.
Lemma mem_nat_flat_map {A} x (h : A -> list nat) (p : A -> bool) l :
  Forall (fun a => p a = mem_nat x (h a)) l -> existsb p l = mem_nat x (flat_map h l).
Proof. unfold mem_nat. induction 1 as [|a l Ha _ IH]; cbn [existsb flat_map]; [|rewrite existsb_app, Ha, IH]; reflexivity. Qed.

Lemma submentions_mem x : forall f, submentions f x = mem_nat x (sub_vars f).
Proof.
  induction f as [| |v|g IH|q vs g IH|op fs n IH|op l rr IHl IHr|z i g IH|c t e IHc IHt IHe|op l rr IHl IHr|b0|] using form_ind';
    cbn [submentions sub_vars]; auto.
  - apply mem_nat_flat_map, IH.
  - unfold mem_nat. rewrite existsb_app. f_equal; apply mem_nat_flat_map; assumption.
  - unfold mem_nat. rewrite !existsb_app, IHc, IHt, IHe. symmetry. apply orb_assoc.
  - unfold mem_nat. rewrite existsb_app, IHl, IHr. reflexivity.
Qed.
Lemma submentions_sub_vars : forall f x, submentions f x = true <-> In x (sub_vars f).
Proof. intros f x. rewrite submentions_mem. apply mem_nat_In. Qed.

Lemma fv_vocc_eq x : forall f, submentions f x = false -> fv f x = vocc f x.
Proof.
  induction f as [| |v|g IH|q vs g IH|op fs n IH|op l rr IHl IHr|z i g IH|c t e IHc IHt IHe|op l rr IHl IHr|b0|] using form_ind';
    cbn [submentions fv vocc]; auto.
  - intros Hs. rewrite (IH Hs). reflexivity.
  - intros Hs. apply existsb_ext_Forall, (existsb_false_mp _ _ _ IH Hs).
  - intros [Hl Hr]%orb_false_iff. f_equal; apply existsb_ext_Forall; [apply (existsb_false_mp _ _ _ IHl Hl)|apply (existsb_false_mp _ _ _ IHr Hr)].
  - intros Hs. rewrite (IH Hs). reflexivity.
  - intros [[H1 H2]%orb_false_iff H3]%orb_false_iff. rewrite (IHc H1), (IHt H2), (IHe H3). reflexivity.
  - intros [H1 H2]%orb_false_iff. rewrite (IHl H1), (IHr H2). reflexivity.
Qed.
Lemma fv_vocc : forall f x, submentions f x = false -> fv f x = true -> vocc f x = true.
Proof. intros f x Hs H. rewrite <- (fv_vocc_eq x f Hs). exact H. Qed.

Lemma Den_indep_gen : forall f r d x, submentions f x = false -> env_respects r -> env_indep r x ->
  (vocc f x = true -> exists e, r x = Some e) -> Den r f d -> indep d x.
Proof.
  intros f r d x Hns Hr Hi Hfv. apply Den_indep_fv; auto.
  - intros H. apply submentions_sub_vars in H. congruence.
  - intros H. apply Hfv, fv_vocc; assumption.
Qed.

Theorem eval_support n f b : wf f -> eval_f n f = Some b ->
  forall x, In x (support b) -> vocc f x = true \/ submentions f x = true.
Proof.
  intros Hwf He x Hx. destruct (sound n f b Hwf He) as [HD Hrb].
  apply orb_true_iff. revert x Hx. apply (support_by_Den_indep b (fun x => vocc f x || submentions f x) Hrb).
  intros x E. apply orb_false_iff in E. destruct E as [E1 E2].
  apply (Den_indep_gen f empty (bden b) x E2); try apply env_all_empty; [|exact HD]. rewrite E1. discriminate.
Qed.

Lemma vocc_replace_eq X b y : forall t, vocc (replace_var X (FSub b) t) y = negb (y =? X) && vocc t y.
Proof.
  induction t as [| |v|g IH|q vs g IH|op fs n IH|op l rr IHl IHr|z i g IH|c t e IHc IHt IHe|op l rr IHl IHr|b0|] using form_ind';
    cbn [replace_var vocc]; try (symmetry; apply andb_false_r).
  - destruct (Nat.eqb_spec v X); cbn [vocc]; destruct (Nat.eqb_spec y X), (Nat.eqb_spec v y); cbn [negb andb]; congruence.
  - exact IH.
  - destruct (mem_nat X vs) eqn:EX; cbn [vocc].
    + destruct (Nat.eqb_spec y X) as [->|]; [rewrite EX|]; reflexivity.
    + rewrite IH. destruct (mem_nat y vs), (y =? X); reflexivity.
  - rewrite existsb_map. apply existsb_andb, IH.
  - rewrite !existsb_map, (existsb_andb _ _ _ l IHl), (existsb_andb _ _ _ rr IHr). symmetry. apply andb_orb_distrib_r.
  - destruct (Nat.eqb_spec z X) as [->|]; cbn [vocc]; [rewrite (Nat.eqb_sym y X); destruct (X =? y)|rewrite IH; destruct (z =? y), (y =? X)]; reflexivity.
  - rewrite IHc, IHt, IHe. destruct (y =? X); reflexivity.
  - rewrite IHl, IHr. destruct (y =? X); reflexivity.
Qed.
Lemma vocc_replace X b : forall t y, vocc (replace_var X (FSub b) t) y = true -> vocc t y = true /\ y <> X.
Proof. intros t y H. rewrite vocc_replace_eq in H. destruct (Nat.eqb_spec y X); [discriminate|split; assumption]. Qed.

Lemma submentions_replace_eq X b y : mem_nat y (support b) = false -> forall t, submentions (replace_var X (FSub b) t) y = submentions t y.
Proof.
  intros Hb.
  induction t as [| |v|g IH|q vs g IH|op fs n IH|op l rr IHl IHr|z i g IH|c t e IHc IHt IHe|op l rr IHl IHr|b0|] using form_ind';
    cbn [replace_var submentions]; auto.
  - destruct (Nat.eqb v X); [exact Hb|reflexivity].
  - destruct (mem_nat X vs); cbn [submentions]; auto.
  - rewrite existsb_map. apply existsb_ext_Forall, IH.
  - rewrite !existsb_map. f_equal; apply existsb_ext_Forall; assumption.
  - destruct (Nat.eqb z X); cbn [submentions]; auto.
  - rewrite IHc, IHt, IHe. reflexivity.
  - rewrite IHl, IHr. reflexivity.
Qed.
Lemma submentions_replace X b : forall t y, submentions (replace_var X (FSub b) t) y = true ->
  submentions t y = true \/ In y (support b).
Proof.
  intros t y H. destruct (mem_nat y (support b)) eqn:E; [right; apply mem_nat_In, E|].
  left. rewrite <- (submentions_replace_eq X b y E t). exact H.
Qed.
Print Assumptions eval_support.
