(** The reference semantics as a total executable function on fixed-point-free formulas. *)
From Coq Require Import List Arith Bool PeanoNat ZArith NArith.
Import ListNotations.
From Rsbdd Require Import Core.Bdd Lang.Ast Lang.AstFacts Lang.Den Lang.DenFacts.

Fixpoint fsem (f : form) : den :=
  match f with
  | FFalse => fun _ => false
  | FTrue => fun _ => true
  | FVar v => fun s => s v
  | FNot g => fun s => negb (fsem g s)
  | FQuant q vs g => fold_right (quant_sem q) (fsem g) vs
  | FCountC op fs n => fun s => cop_sem op (count_den (map fsem fs) s) (Z.of_N n)
  | FCountV op l r => fun s => cop_sem op (count_den (map fsem l) s) (count_den (map fsem r) s)
  | FFix _ _ _ => fun _ => false            (* not in the fragment *)
  | FIte c t e => fun s => if fsem c s then fsem t s else fsem e s
  | FBin op a b => fun s => binop_sem op (fsem a s) (fsem b s)
  | FSub b => fun s => beval s b
  | FRef => fun _ => false
  end.

Fixpoint nofix (f : form) : Prop :=
  match f with
  | FFix _ _ _ => False
  | FNot g | FQuant _ _ g => nofix g
  | FCountC _ fs _ => (fix go l := match l with [] => True | g :: r => nofix g /\ go r end) fs
  | FCountV _ l r => (fix go l := match l with [] => True | g :: r => nofix g /\ go r end) l /\
                     (fix go l := match l with [] => True | g :: r => nofix g /\ go r end) r
  | FIte a b c => nofix a /\ nofix b /\ nofix c
  | FBin _ a b => nofix a /\ nofix b
  | _ => True
  end.
Lemma nofix_list l : (fix go l := match l with [] => True | g :: r => nofix g /\ go r end) l <-> Forall nofix l.
Proof. apply (Forall_nested nofix). Qed.

Theorem fsem_den : forall f, nofix f -> Den empty f (fsem f).
Proof.
  induction f as [| |v|g IH|q vs g IH|op fs n IH|op l rr IHl IHr|y i g IH|c t e IHc IHt IHe|op l rr IHl IHr|b0|] using form_ind';
    cbn [nofix]; intros Hn.
  - apply deq_refl.
  - apply deq_refl.
  - apply deq_refl.
  - cbn [Den fsem]. exists (fsem g). split; auto; apply deq_refl.
  - cbn [Den fsem]. exists (fsem g). split; [apply Den_unbind_empty; auto|apply deq_refl].
  - apply nofix_list in Hn. rewrite Forall_forall in IH, Hn.
    apply Den_countc. exists (map fsem fs). split; [apply Dens_fun; auto|apply deq_refl].
  - destruct Hn as [Nl Nr]. apply nofix_list in Nl. apply nofix_list in Nr. rewrite Forall_forall in IHl, IHr, Nl, Nr.
    apply Den_countv. exists (map fsem l), (map fsem rr). split; [|split; [|apply deq_refl]]; apply Dens_fun; auto.
  - destruct Hn.
  - destruct Hn as (N1 & N2 & N3). cbn [Den fsem]. exists (fsem c), (fsem t), (fsem e). repeat split; auto; apply deq_refl.
  - destruct Hn as (N1 & N2). cbn [Den fsem]. exists (fsem l), (fsem rr). repeat split; auto; apply deq_refl.
  - apply deq_refl.
  - apply deq_refl.
Qed.

(** right-nested conjunction chains, as the generators emit them *)
Fixpoint conj_chain (cs : list form) (last : form) : form :=
  match cs with [] => last | c :: r => FBin BAnd c (conj_chain r last) end.
Lemma fsem_conj_chain cs last s : fsem (conj_chain cs last) s = forallb (fun c => fsem c s) cs && fsem last s.
Proof. induction cs as [|c r IH]; cbn [conj_chain forallb fsem binop_sem]; auto. rewrite IH, andb_assoc. reflexivity. Qed.
Print Assumptions fsem_den.
