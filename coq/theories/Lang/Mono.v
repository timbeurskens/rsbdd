(** A syntactic criterion for monotonicity in a fixed-point name (C06): if every free occurrence of X in a
    body has positive polarity - X under and / or / if-branches / quantifiers / at-least counting / an even
    number of negations, never under xor / iff / an if-condition / exactly-counting - and every inner
    fixed-point binder is positive in its own body ([posfix]), then the body's meaning is monotone in the
    value of X, in every environment ([mono_posfix]; [mono_env] for several names at once). *)
From Coq Require Import List Arith Bool PeanoNat ZArith NArith Lia.
Import ListNotations.
From Rsbdd Require Import Lang.Ast Lang.AstFacts Lang.Den Lang.DenFacts Lang.FSem Lang.FixLang.

(** [pos X p f]: every free occurrence of the name X in f has polarity p (true = positive) *)
Fixpoint pos (X : nat) (p : bool) (f : form) : bool :=
  match f with
  | FVar v => if Nat.eqb v X then p else true
  | FNot g => pos X (negb p) g
  | FQuant _ vs g => if mem_nat X vs then true else pos X p g
  | FCountC op fs _ =>
      match op with
      | AtLeast | MoreThan => forallb (pos X p) fs
      | AtMost | LessThan => forallb (pos X (negb p)) fs
      | Exactly => forallb (pos X p) fs && forallb (pos X (negb p)) fs
      end
  | FCountV op l r =>
      match op with
      | AtLeast | MoreThan => forallb (pos X p) l && forallb (pos X (negb p)) r
      | AtMost | LessThan => forallb (pos X (negb p)) l && forallb (pos X p) r
      | Exactly => forallb (pos X p) l && forallb (pos X (negb p)) l && forallb (pos X p) r && forallb (pos X (negb p)) r
      end
  | FIte c t e => pos X p c && pos X (negb p) c && pos X p t && pos X p e
  | FBin op a b =>
      match op with
      | BAnd | BOr => pos X p a && pos X p b
      | BNor | BNand => pos X (negb p) a && pos X (negb p) b
      | BImplies => pos X (negb p) a && pos X p b
      | BImpliesInv => pos X p a && pos X (negb p) b
      | BXor | BIff => pos X p a && pos X (negb p) a && pos X p b && pos X (negb p) b
      end
  | FFix Y _ g => if Nat.eqb Y X then true else pos X p g      (* an inner binder on X shadows it *)
  | _ => true
  end.

(** the direction is an argument: [p = true] reads "<=", [false] reads ">="; likewise [bord] (on booleans) and [zord] (on counts) *)
Definition ord_p (p : bool) (e1 e2 : den) : Prop := if p then dle e1 e2 else dle e2 e1.

Definition bord (p x y : bool) : Prop := if p then x = true -> y = true else y = true -> x = true.
Lemma ord_p_pw p e1 e2 : ord_p p e1 e2 <-> forall s, bord p (e1 s) (e2 s).
Proof. destruct p; cbn; unfold dle; tauto. Qed.

Lemma bord_refl p x : bord p x x.
Proof. destruct p; cbn; auto. Qed.
Lemma bord_top p x : bord p x p.
Proof. destruct p, x; cbn; auto. Qed.
Lemma bord_bot p y : bord p (negb p) y.
Proof. destruct p, y; cbn; auto. Qed.
Lemma bord_both p x y : bord p x y -> bord (negb p) x y -> x = y.
Proof. destruct p, x, y; cbn; intuition congruence. Qed.
Lemma bord_negb p x y : bord (negb p) x y -> bord p (negb x) (negb y).
Proof. destruct p, x, y; cbn; intuition congruence. Qed.
Lemma bord_and p x1 x2 y1 y2 : bord p x1 x2 -> bord p y1 y2 -> bord p (x1 && y1) (x2 && y2).
Proof. destruct p, x1, x2, y1, y2; cbn; intuition congruence. Qed.
Lemma bord_or p x1 x2 y1 y2 : bord p x1 x2 -> bord p y1 y2 -> bord p (x1 || y1) (x2 || y2).
Proof. destruct p, x1, x2, y1, y2; cbn; intuition congruence. Qed.

Lemma ord_flip p e1 e2 : ord_p (negb p) e1 e2 -> ord_p p e2 e1.
Proof. destruct p; cbn; auto. Qed.

Lemma bord_quant q p vs e1 e2 : (forall s, bord p (e1 s) (e2 s)) ->
  forall s, bord p (fold_right (quant_sem q) e1 vs s) (fold_right (quant_sem q) e2 vs s).
Proof.
  intros H. induction vs as [|v vs IH]; cbn [fold_right]; [exact H|].
  intros s. destruct q; [apply bord_or|apply bord_and]; apply IH.
Qed.

(** How an operator depends on one argument: increasing, decreasing, or not monotone at all.  In the last
    case the argument must not move, which [pos] expresses by asking both polarities of it. *)
Inductive variance : Type := Co | Contra | Inv.
Definition opp (v : variance) : variance := match v with Co => Contra | Contra => Co | Inv => Inv end.
Definition at_var (P : bool -> Prop) (v : variance) (p : bool) : Prop :=
  match v with Co => P p | Contra => P (negb p) | Inv => P p /\ P (negb p) end.
Lemma at_var_impl (P Q : bool -> Prop) v p : (forall q, P q -> Q q) -> at_var P v p -> at_var Q v p.
Proof. destruct v; cbn; intuition. Qed.
Lemma at_var_all (P : bool -> Prop) v p : (forall q, P q) -> at_var P v p.
Proof. destruct v; cbn; auto. Qed.

Definition bin_var (op : binop) : variance * variance :=
  match op with
  | BAnd | BOr => (Co, Co) | BNor | BNand => (Contra, Contra)
  | BImplies => (Contra, Co) | BImpliesInv => (Co, Contra) | BXor | BIff => (Inv, Inv)
  end.
(** the variance of a comparison in its left count; in its right count it is [opp] of that *)
Definition cop_var (op : cop) : variance :=
  match op with AtLeast | MoreThan => Co | AtMost | LessThan => Contra | Exactly => Inv end.

(** [pos] at an operator: each operand has the polarity that the operator's variance in it asks for *)
Lemma pos_bin X p op a b : pos X p (FBin op a b) = true <->
  at_var (fun q => pos X q a = true) (fst (bin_var op)) p /\ at_var (fun q => pos X q b = true) (snd (bin_var op)) p.
Proof. destruct op; cbn [pos bin_var fst snd at_var]; rewrite ?andb_true_iff; tauto. Qed.
Lemma pos_ite X p c t e : pos X p (FIte c t e) = true <->
  at_var (fun q => pos X q c = true) Inv p /\ pos X p t = true /\ pos X p e = true.
Proof. cbn [pos at_var]. rewrite !andb_true_iff. tauto. Qed.
Lemma pos_countc X p op fs n : pos X p (FCountC op fs n) = true <-> at_var (fun q => forallb (pos X q) fs = true) (cop_var op) p.
Proof. destruct op; cbn [pos cop_var at_var]; rewrite ?andb_true_iff; tauto. Qed.
Lemma pos_countv X p op l r : pos X p (FCountV op l r) = true <->
  at_var (fun q => forallb (pos X q) l = true) (cop_var op) p /\ at_var (fun q => forallb (pos X q) r = true) (opp (cop_var op)) p.
Proof. destruct op; cbn [pos cop_var opp at_var]; rewrite ?andb_true_iff; tauto. Qed.

Lemma binop_sem_var op p x1 x2 y1 y2 :
  at_var (fun q => bord q x1 x2) (fst (bin_var op)) p -> at_var (fun q => bord q y1 y2) (snd (bin_var op)) p ->
  bord p (binop_sem op x1 y1) (binop_sem op x2 y2).
Proof.
  destruct op; cbn [bin_var fst snd at_var binop_sem].
  - apply bord_and.
  - apply bord_or.
  - intros [A A'] [B B']. rewrite (bord_both _ _ _ A A'), (bord_both _ _ _ B B'). apply bord_refl.
  - intros A B. apply bord_negb, bord_or; assumption.
  - intros A B. apply bord_negb, bord_and; assumption.
  - (* implb x y is negb x || y *)
    intros A B. generalize (bord_or _ _ _ _ _ (bord_negb _ _ _ A) B). destruct x1, x2; exact (fun H => H).
  - intros A B. generalize (bord_or _ _ _ _ _ (bord_negb _ _ _ B) A). destruct y1, y2; exact (fun H => H).
  - intros [A A'] [B B']. rewrite (bord_both _ _ _ A A'), (bord_both _ _ _ B B'). apply bord_refl.
Qed.

Definition zord (p : bool) (c1 c2 : Z) : Prop := if p then (c1 <= c2)%Z else (c2 <= c1)%Z.
Lemma zord_refl p c : zord p c c.
Proof. destruct p; cbn; lia. Qed.
Lemma cop_sem_var op p c1 c2 n1 n2 :
  at_var (fun q => zord q c1 c2) (cop_var op) p -> at_var (fun q => zord q n1 n2) (opp (cop_var op)) p ->
  bord p (cop_sem op c1 n1) (cop_sem op c2 n2).
Proof. destruct op, p; cbn; rewrite ?Z.leb_le, ?Z.ltb_lt, ?Z.eqb_eq; lia. Qed.

Lemma count_ord p ds1 ds2 : Forall2 (fun d1 d2 => forall s, bord p (d1 s) (d2 s)) ds1 ds2 ->
  forall s, zord p (count_den ds1 s) (count_den ds2 s).
Proof.
  induction 1 as [|a b l1 l2 Hab _ IH]; intros s; cbn [count_den]; [apply zord_refl|].
  generalize (Hab s) (IH s). destruct p, (a s), (b s); cbn [zord bord]; intros Hs Hc; try lia; discriminate (Hs eq_refl).
Qed.

(** every inner fixed point binds a name that is positive in its own body *)
Fixpoint posfix (f : form) : bool :=
  match f with
  | FFix Y _ g => pos Y true g && posfix g
  | FNot g | FQuant _ _ g => posfix g
  | FCountC _ fs _ => forallb posfix fs
  | FCountV _ l r => forallb posfix l && forallb posfix r
  | FIte a b c => posfix a && posfix b && posfix c
  | FBin _ a b => posfix a && posfix b
  | _ => true
  end.

(** two environments that differ only on names in [Up] (by going up) and on names in [Dn] (by going down) *)
Definition erel (Up Dn : nat -> Prop) (r1 r2 : fenv) : Prop :=
  forall y, match r1 y, r2 y with
            | None, None => True
            | Some a, Some b => deq a b \/ (Up y /\ dle a b) \/ (Dn y /\ dle b a)
            | _, _ => False
            end.

(** the statement of [mono_env]; [mono_at] below is the form the induction proves, with [okp] for the sets Up / Dn *)
Definition mono_stmt (g : form) : Prop :=
  posfix g = true -> forall q (Up Dn : nat -> Prop) r1 r2 e1 e2,
    (forall y, Up y -> pos y q g = true) -> (forall y, Dn y -> pos y (negb q) g = true) ->
    erel Up Dn r1 r2 -> Den r1 g e1 -> Den r2 g e2 -> ord_p q e1 e2.

Lemma erel_mono (Up Dn Up' Dn' : nat -> Prop) r1 r2 :
  (forall y, Up y -> Up' y) -> (forall y, Dn y -> Dn' y) -> erel Up Dn r1 r2 -> erel Up' Dn' r1 r2.
Proof. intros HU HD H y. specialize (H y). destruct (r1 y), (r2 y); auto. destruct H as [E|[[U L]|[D L]]]; auto. Qed.

(** [okb P q r1 r2]: the two environments differ only where the test P allows it, upwards on the names y with
    [P y q], downwards on those with [P y (negb q)]; [okp] is the case of [pos] on a formula *)
Definition okb (P : nat -> bool -> Prop) (q : bool) : fenv -> fenv -> Prop :=
  erel (fun y => P y q) (fun y => P y (negb q)).
Definition okp (q : bool) (g : form) : fenv -> fenv -> Prop := okb (fun y q => pos y q g = true) q.

(** from an operator to an operand of variance v *)
Lemma okb_sub (G P : nat -> bool -> Prop) v p r1 r2 : (forall y q, G y q -> at_var (P y) v q) ->
  okb G p r1 r2 -> at_var (fun q => okb P q r1 r2) v p.
Proof. intros E H. destruct v; cbn [at_var] in *; [| |split]; revert H; apply erel_mono; intros y K; apply (E y _ K). Qed.
Lemma okb_split (G : nat -> bool -> Prop) P1 v1 P2 v2 p r1 r2 : (forall y q, G y q -> at_var (P1 y) v1 q /\ at_var (P2 y) v2 q) ->
  okb G p r1 r2 -> at_var (fun q => okb P1 q r1 r2) v1 p /\ at_var (fun q => okb P2 q r1 r2) v2 p.
Proof. intros E H. split; revert H; apply okb_sub; intros y q K; apply (E y q K). Qed.

Lemma okp_quant p q vs g r1 r2 : okp p (FQuant q vs g) r1 r2 -> okp p g (unbind r1 vs) (unbind r2 vs).
Proof. intros H y. generalize (H y). cbn [pos]. unfold unbind. destruct (mem_nat y vs); [intros _; exact I|exact (fun K => K)]. Qed.
Lemma okp_fix p Y i g r1 r2 a b : okp p (FFix Y i g) r1 r2 -> pos Y true g = true -> (forall s, bord p (a s) (b s)) ->
  okp p g (bind r1 Y a) (bind r2 Y b).
Proof.
  intros H HY Hab y. generalize (H y). cbn [pos]. rewrite (Nat.eqb_sym Y y). unfold bind.
  destruct (Nat.eqb_spec y Y) as [->|_]; [intros _|exact (fun K => K)].
  apply ord_p_pw in Hab. destruct p; cbn in Hab |- *; tauto.
Qed.

Definition mono_at (f : form) : Prop := posfix f = true -> forall p r1 r2, okp p f r1 r2 ->
  forall e1 e2, Den r1 f e1 -> Den r2 f e2 -> forall s, bord p (e1 s) (e2 s).

Lemma mono_counts fs : Forall mono_at fs -> forallb posfix fs = true -> forall p r1 r2,
  okb (fun y q => forallb (pos y q) fs = true) p r1 r2 -> forall ds1 ds2, Dens r1 fs ds1 -> Dens r2 fs ds2 ->
  forall s, zord p (count_den ds1 s) (count_den ds2 s).
Proof.
  rewrite Forall_forall, forallb_forall. intros IH Hpf p r1 r2 K ds1 ds2 F1 F2.
  apply count_ord, (Dens_rel r1 r2 _ fs ds1 ds2); [|exact F1|exact F2].
  intros g Hg. apply (IH g Hg (Hpf g Hg)). revert K. apply (okb_sub _ _ Co).
  intros y q Hq. exact (proj1 (forallb_forall _ _) Hq g Hg).
Qed.

Lemma mono_okp : forall f, mono_at f.
Proof.
  induction f as [| |v|g IH|q vs g IH|op fs n IH|op l rr IHl IHr|Y i g IH|c t e IHc IHt IHe|op a b IHa IHb|b0|] using form_ind';
    intros Hpf p r1 r2 Hok e1 e2 H1 H2; cbn [posfix] in Hpf.
  1, 2, 11, 12: cbn [Den] in H1, H2; intros s; rewrite (H1 s), (H2 s); apply bord_refl.
  - (* FVar: the one place where the environments are looked at *)
    cbn [Den] in H1, H2. intros s. rewrite (H1 s), (H2 s). generalize (Hok v). cbn [pos]. rewrite Nat.eqb_refl.
    destruct (r1 v) as [a1|], (r2 v) as [a2|]; try contradiction; [|intros _; apply bord_refl].
    intros [E|[[U L]|[D L]]].
    + rewrite (E s). apply bord_refl.
    + rewrite U. exact (L s).
    + destruct p; [discriminate D|exact (L s)].
  - cbn [Den] in H1, H2. destruct H1 as (a1 & D1 & E1), H2 as (a2 & D2 & E2).
    intros s. rewrite (E1 s), (E2 s). apply bord_negb. exact (IH Hpf (negb p) r1 r2 Hok a1 a2 D1 D2 s).
  - cbn [Den] in H1, H2. destruct H1 as (a1 & D1 & E1), H2 as (a2 & D2 & E2).
    intros s. rewrite (E1 s), (E2 s). apply bord_quant. exact (IH Hpf p _ _ (okp_quant _ _ _ _ _ _ Hok) a1 a2 D1 D2).
  - apply Den_countc in H1. apply Den_countc in H2. destruct H1 as (ds1 & F1 & E1), H2 as (ds2 & F2 & E2).
    intros s. rewrite (E1 s), (E2 s). apply cop_sem_var; [|apply at_var_all; intros q; apply zord_refl].
    generalize (okb_sub _ _ _ _ _ _ (fun y q => proj1 (pos_countc y q op fs n)) Hok). apply at_var_impl.
    intros q K. exact (mono_counts fs IH Hpf q r1 r2 K ds1 ds2 F1 F2 s).
  - apply andb_true_iff in Hpf. destruct Hpf as [Pl Pr]. apply Den_countv in H1. apply Den_countv in H2.
    destruct H1 as (dl1 & dr1 & Fl1 & Fr1 & E1), H2 as (dl2 & dr2 & Fl2 & Fr2 & E2).
    destruct (okb_split _ _ _ _ _ _ _ _ (fun y q => proj1 (pos_countv y q op l rr)) Hok) as [Kl Kr].
    intros s. rewrite (E1 s), (E2 s). apply cop_sem_var.
    + revert Kl. apply at_var_impl. intros q K. exact (mono_counts l IHl Pl q r1 r2 K dl1 dl2 Fl1 Fl2 s).
    + revert Kr. apply at_var_impl. intros q K. exact (mono_counts rr IHr Pr q r1 r2 K dr1 dr2 Fr1 Fr2 s).
  - (* FFix: the fixed point that one chain has reached is compared with every iterate of the other;
       which chain runs depends on whether the start value is the top or the bottom of the order p *)
    apply andb_true_iff in Hpf. destruct Hpf as [HposY Hpg].
    assert (St : forall a b a' b', (forall s, bord p (a s) (b s)) -> Den (bind r1 Y a) g a' -> Den (bind r2 Y b) g b' ->
                 forall s, bord p (a' s) (b' s)).
    { intros a b a' b' Hab. exact (IH Hpg p _ _ (okp_fix _ _ _ _ _ _ _ _ Hok HposY Hab) a' b'). }
    cbn [Den] in H1, H2.
    destruct H1 as (s1 & n1 & I1 & S1 & _ & X1 & E1), H2 as (s2 & n2 & I2 & S2 & _ & X2 & E2).
    intros s. rewrite (E1 s), (E2 s). revert s.
    assert (Hi : i = p \/ i = negb p) by (destruct i, p; auto). destruct Hi as [->| ->].
    + apply (iterates_all (fun x => forall s, bord p (s1 n1 s) (x s)) s2 n2); [| |lia].
      * intros s. rewrite (I2 s). apply bord_top.
      * intros j Hj Hx s. rewrite <- (X1 s). exact (St _ _ _ _ Hx (S1 n1 (le_n _)) (S2 j Hj) s).
    + apply (iterates_all (fun x => forall s, bord p (x s) (s2 n2 s)) s1 n1); [| |lia].
      * intros s. rewrite (I1 s). apply bord_bot.
      * intros j Hj Hx s. rewrite <- (X2 s). exact (St _ _ _ _ Hx (S1 j Hj) (S2 n2 (le_n _)) s).
  - apply andb_true_iff in Hpf. destruct Hpf as [Hpf Pe]. apply andb_true_iff in Hpf. destruct Hpf as [Pc Pt].
    cbn [Den] in H1, H2. destruct H1 as (c1 & t1 & x1 & Dc1 & Dt1 & De1 & E1), H2 as (c2 & t2 & x2 & Dc2 & Dt2 & De2 & E2).
    destruct (okb_split _ (fun y q => pos y q c = true) Inv (fun y q => pos y q t = true /\ pos y q e = true) Co _ _ _
                (fun y q => proj1 (pos_ite y q c t e)) Hok) as [[Kc Kc'] Kte].
    destruct (okb_split _ (fun y q => pos y q t = true) Co (fun y q => pos y q e = true) Co _ _ _ (fun y q K => K) Kte) as [Kt Ke].
    intros s. rewrite (E1 s), (E2 s), (bord_both p _ _ (IHc Pc p r1 r2 Kc c1 c2 Dc1 Dc2 s) (IHc Pc (negb p) r1 r2 Kc' c1 c2 Dc1 Dc2 s)).
    destruct (c2 s); [exact (IHt Pt p r1 r2 Kt t1 t2 Dt1 Dt2 s)|exact (IHe Pe p r1 r2 Ke x1 x2 De1 De2 s)].
  - apply andb_true_iff in Hpf. destruct Hpf as [Pa Pb].
    cbn [Den] in H1, H2. destruct H1 as (a1 & b1 & Da1 & Db1 & E1), H2 as (a2 & b2 & Da2 & Db2 & E2).
    destruct (okb_split _ _ _ _ _ _ _ _ (fun y q => proj1 (pos_bin y q op a b)) Hok) as [Ka Kb].
    intros s. rewrite (E1 s), (E2 s). apply binop_sem_var.
    + revert Ka. apply at_var_impl. intros q K. exact (IHa Pa q r1 r2 K a1 a2 Da1 Da2 s).
    + revert Kb. apply at_var_impl. intros q K. exact (IHb Pb q r1 r2 K b1 b2 Db1 Db2 s).
Qed.

Theorem mono_env : forall f, mono_stmt f.
Proof.
  intros f Hpf q Up Dn r1 r2 e1 e2 HU HD Hrel D1 D2. apply ord_p_pw, (mono_okp f Hpf q r1 r2 (erel_mono _ _ _ _ _ _ HU HD Hrel) e1 e2 D1 D2).
Qed.

Lemma erel_bind X Dn r d1 d2 : dle d1 d2 -> erel (fun y => y = X) Dn (bind r X d1) (bind r X d2).
Proof.
  intros Hd y. unfold bind. destruct (Nat.eqb_spec y X) as [->|Hne].
  - right. left. split; auto.
  - destruct (r y); auto. left. intros s. reflexivity.
Qed.
Theorem mono_posfix X f : posfix f = true -> forall p, pos X p f = true -> forall r d1 d2 e1 e2, dle d1 d2 ->
  Den (bind r X d1) f e1 -> Den (bind r X d2) f e2 -> ord_p p e1 e2.
Proof.
  intros Hpf p Hp r d1 d2 e1 e2 Hd D1 D2.
  apply (mono_env f Hpf p (fun y => y = X) (fun _ => False) (bind r X d1) (bind r X d2) e1 e2); auto.
  - intros y ->. exact Hp.
  - apply erel_bind. exact Hd.
Qed.

Lemma nofix_posfix : forall f, nofix f -> posfix f = true.
Proof.
  induction f as [| |v|g IH|q vs g IH|op fs n IH|op l rr IHl IHr|y i g IH|c t e IHc IHt IHe|op a b IHa IHb|b0|] using form_ind';
    cbn [nofix posfix]; auto.
  - intros H. apply nofix_list in H. apply forallb_forall. rewrite Forall_forall in *. auto.
  - intros [H1 H2]. apply nofix_list in H1. apply nofix_list in H2. apply andb_true_iff.
    rewrite !Forall_forall in *. split; apply forallb_forall; auto.
  - intros (? & ? & ?). rewrite IHc, IHt, IHe; auto.
  - intros (? & ?). rewrite IHa, IHb; auto.
Qed.

Theorem mono_pos X : forall f, nofix f -> forall p, pos X p f = true -> forall r d1 d2 e1 e2, dle d1 d2 ->
  Den (bind r X d1) f e1 -> Den (bind r X d2) f e2 -> ord_p p e1 e2.
Proof. intros f Hnf. apply mono_posfix. apply nofix_posfix. exact Hnf. Qed.
