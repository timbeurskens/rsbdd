(** C09: free-variable analysis is exact, and the evaluated diagram mentions free variables only. *)
From Coq Require Import List Arith Bool PeanoNat Lia.
Import ListNotations.
From Rsbdd Require Import Core.Bdd Core.Canon Core.Quant Core.Essential.
From Rsbdd Require Import Lang.Ast Lang.AstFacts Lang.Den Lang.DenFacts Lang.Eval Lang.EvalSound.

(** every variable occurrence together with the binders that enclose it (innermost first) *)
Fixpoint occ (f : form) : list (list nat * nat) :=
  match f with
  | FVar v => [([], v)]
  | FNot g => occ g
  | FQuant _ vs g => map (fun p => (fst p ++ vs, snd p)) (occ g)
  | FCountC _ fs _ => flat_map occ fs
  | FCountV _ l r => flat_map occ l ++ flat_map occ r
  | FFix x _ g => map (fun p => (fst p ++ [x], snd p)) (occ g)
  | FIte a b c => occ a ++ occ b ++ occ c
  | FBin _ a b => occ a ++ occ b
  | _ => []
  end.

(** no Reference: at an undefined one [var_is_free] answers true for every variable *)
Fixpoint noref (f : form) : Prop :=
  match f with
  | FRef => False
  | FNot g | FQuant _ _ g | FFix _ _ g => noref g
  | FCountC _ fs _ => (fix go l := match l with [] => True | g :: r => noref g /\ go r end) fs
  | FCountV _ l r => (fix go l := match l with [] => True | g :: r => noref g /\ go r end) l /\
                     (fix go l := match l with [] => True | g :: r => noref g /\ go r end) r
  | FIte a b c => noref a /\ noref b /\ noref c
  | FBin _ a b => noref a /\ noref b
  | _ => True
  end.
Lemma noref_list l : (fix go l := match l with [] => True | g :: r => noref g /\ go r end) l <-> Forall noref l.
Proof. apply (Forall_nested noref). Qed.

Lemma mem_nat_In x l : mem_nat x l = true <-> In x l.
Proof. apply (OpsFacts.existsb_eqb Nat.eqb Nat.eqb_spec). Qed.

Definition free_occ (f : form) (x : nat) : Prop := exists bs, In (bs, x) (occ f) /\ ~ In x bs.

Definition free_in (l : list (list nat * nat)) (x : nat) : Prop := exists bs, In (bs, x) l /\ ~ In x bs.

Lemma free_in_app l l' x : free_in (l ++ l') x <-> free_in l x \/ free_in l' x.
Proof.
  unfold free_in. split.
  - intros (bs & Hin & Hn). apply in_app_or in Hin. destruct Hin; [left|right]; exists bs; auto.
  - intros [(bs & Hin & Hn)|(bs & Hin & Hn)]; exists bs; (split; [apply in_or_app; auto|auto]).
Qed.
Lemma free_in_binder bs0 l x : free_in (map (fun p => (fst p ++ bs0, snd p)) l) x <-> ~ In x bs0 /\ free_in l x.
Proof.
  unfold free_in. split.
  - intros (bs & Hin & Hn). apply in_map_iff in Hin. destruct Hin as ([bs1 v] & Heq & Hin). inversion Heq; subst.
    split; [intros H; apply Hn, in_or_app; auto|]. exists bs1. split; auto. intros H. apply Hn, in_or_app. auto.
  - intros (Hn0 & bs & Hin & Hn). exists (bs ++ bs0). split; [apply in_map_iff; exists (bs, x); auto|].
    intros H. apply in_app_or in H. tauto.
Qed.
Lemma free_in_flat_map (P : form -> nat -> bool) x l :
  (forall g, In g l -> (P g x = true <-> free_in (occ g) x)) ->
  (existsb (fun g => P g x) l = true <-> free_in (flat_map occ l) x).
Proof.
  intros H. rewrite existsb_exists. split.
  - intros (g & Hg & Hp). apply (H g Hg) in Hp. destruct Hp as (bs & Hin & Hn).
    exists bs. split; auto. apply in_flat_map. exists g. auto.
  - intros (bs & Hin & Hn). apply in_flat_map in Hin. destruct Hin as (g & Hg & Hin).
    exists g. split; auto. apply (H g Hg). exists bs. auto.
Qed.

Theorem C09_free : forall f x, noref f -> (var_is_free f x = true <-> free_occ f x).
Proof.
  change (forall f x, noref f -> (var_is_free f x = true <-> free_in (occ f) x)).
  induction f as [| |v|g IH|q vs g IH|op fs n IH|op l rr IHl IHr|y i g IH|c t e IHc IHt IHe|op l rr IHl IHr|b0|] using form_ind';
    intros x Hnr; cbn [var_is_free occ]; cbn [noref] in Hnr.
  - split; [discriminate|intros (bs & [] & _)].
  - split; [discriminate|intros (bs & [] & _)].
  - rewrite Nat.eqb_eq. split.
    + intros ->. exists []. split; [left; reflexivity|intros []].
    + intros (bs & [E|[]] & _). inversion E. reflexivity.
  - apply IH. exact Hnr.
  - rewrite free_in_binder, <- (IH x Hnr), <- mem_nat_In. destruct (mem_nat x vs); cbn; intuition congruence.
  - apply noref_list in Hnr. rewrite Forall_forall in *. apply free_in_flat_map. auto.
  - destruct Hnr as [Hl Hr]. apply noref_list in Hl. apply noref_list in Hr. rewrite Forall_forall in *.
    rewrite orb_true_iff, free_in_app, (free_in_flat_map var_is_free x l), (free_in_flat_map var_is_free x rr) by auto. tauto.
  - (* a fixed-point binder acts as a quantifier over the one name *)
    rewrite free_in_binder, <- (IH x Hnr). cbn [In]. destruct (Nat.eqb_spec y x); cbn; intuition congruence.
  - destruct Hnr as (N1 & N2 & N3). rewrite !orb_true_iff, !free_in_app, (IHc x N1), (IHt x N2), (IHe x N3). tauto.
  - destruct Hnr as (N1 & N2). rewrite !orb_true_iff, free_in_app, (IHl x N1), (IHr x N2). tauto.
  - split; [discriminate|intros (bs & [] & _)].
  - destruct Hnr.
Qed.

(** no Subtree: [var_is_free] is [unimplemented!] there *)
Fixpoint nofsub (f : form) : Prop :=
  match f with
  | FSub _ => False
  | FNot g | FQuant _ _ g | FFix _ _ g => nofsub g
  | FCountC _ fs _ => (fix go l := match l with [] => True | g :: r => nofsub g /\ go r end) fs
  | FCountV _ l r => (fix go l := match l with [] => True | g :: r => nofsub g /\ go r end) l /\
                     (fix go l := match l with [] => True | g :: r => nofsub g /\ go r end) r
  | FIte a b c => nofsub a /\ nofsub b /\ nofsub c
  | FBin _ a b => nofsub a /\ nofsub b
  | _ => True
  end.
Lemma nofsub_list l : (fix go l := match l with [] => True | g :: r => nofsub g /\ go r end) l <-> Forall nofsub l.
Proof. apply (Forall_nested nofsub). Qed.

Lemma nofsub_wf : forall f, nofsub f -> wf f.
Proof.
  induction f as [| |v|g IH|q vs g IH|op fs n IH|op l rr IHl IHr|y i g IH|c t e IHc IHt IHe|op l rr IHl IHr|b0|] using form_ind';
    cbn [nofsub]; auto.
  - intros H. apply nofsub_list in H. apply wf_countc, wfs_Forall. rewrite Forall_forall in *. auto.
  - intros [H1 H2]. apply nofsub_list in H1. apply nofsub_list in H2. apply wf_countv. rewrite !wfs_Forall, !Forall_forall in *. auto.
  - cbn [wf]. intros (? & ? & ?); auto.
  - cbn [wf]. intros (? & ?); auto.
  - intros [].
Qed.

(** like [var_is_free], but embedded diagrams count with their support and references with nothing *)
Fixpoint fv (f : form) (x : nat) : bool :=
  match f with
  | FVar v => Nat.eqb v x
  | FQuant _ vs g => if negb (mem_nat x vs) then fv g x else false
  | FIte a b c => fv a x || fv b x || fv c x
  | FNot g => fv g x
  | FBin _ a b => fv a x || fv b x
  | FCountC _ fs _ => existsb (fun g => fv g x) fs
  | FCountV _ l r => existsb (fun g => fv g x) l || existsb (fun g => fv g x) r
  | FFix v _ g => negb (Nat.eqb v x) && fv g x
  | FSub b => mem_nat x (support b)
  | FTrue | FFalse | FRef => false
  end.

Definition indep (d : den) (x : nat) : Prop := forall s v, d (upd s x v) = d s.
Definition env_all (P : den -> Prop) (r : fenv) : Prop := forall y e, r y = Some e -> P e.
Lemma env_all_empty P : env_all P empty.
Proof. intros y e Hy. discriminate. Qed.
Lemma env_all_unbind P r vs : env_all P r -> env_all P (unbind r vs).
Proof. intros H z e Hz. unfold unbind in Hz. destruct (mem_nat z vs); [discriminate|]. apply (H z e Hz). Qed.
Lemma env_all_bind P r y d : env_all P r -> P d -> env_all P (bind r y d).
Proof. intros H Hd z e Hz. unfold bind in Hz. destruct (Nat.eqb z y); [inversion Hz; subst; exact Hd|apply (H z e Hz)]. Qed.

(** [env_all respects r] and [env_all (fun e => indep e x) r] written out; proofs use the [env_all] lemmas on them by conversion *)
Definition env_respects (r : fenv) : Prop := forall y e, r y = Some e -> respects e.
Definition env_indep (r : fenv) (x : nat) : Prop := forall y e, r y = Some e -> indep e x.

(** variables mentioned by embedded diagrams, under binders or not *)
Fixpoint sub_vars (f : form) : list nat :=
  match f with
  | FSub b => support b
  | FNot g | FQuant _ _ g | FFix _ _ g => sub_vars g
  | FCountC _ fs _ => flat_map sub_vars fs
  | FCountV _ l r => flat_map sub_vars l ++ flat_map sub_vars r
  | FIte a b c => sub_vars a ++ sub_vars b ++ sub_vars c
  | FBin _ a b => sub_vars a ++ sub_vars b
  | _ => []
  end.
Lemma flat_map_nil {A B} (h : A -> list B) l : (forall a, In a l -> h a = []) -> flat_map h l = [].
Proof. induction l as [|a l IH]; intros H; cbn [flat_map]; auto. rewrite (H a), IH; auto; [intros; apply H; right|left]; auto. Qed.
Lemma nofsub_sub_vars : forall f, nofsub f -> sub_vars f = [].
Proof.
  induction f as [| |v|g IH|q vs g IH|op fs n IH|op l rr IHl IHr|y i g IH|c t e IHc IHt IHe|op l rr IHl IHr|b0|] using form_ind';
    cbn [nofsub sub_vars]; auto.
  - intros H. apply nofsub_list in H. rewrite Forall_forall in *. apply flat_map_nil. auto.
  - intros [H1 H2]. apply nofsub_list in H1. apply nofsub_list in H2. rewrite Forall_forall in *.
    rewrite !flat_map_nil; auto.
  - intros (H1 & H2 & H3). rewrite IHc, IHt, IHe; auto.
  - intros (H1 & H2). rewrite IHl, IHr; auto.
  - intros [].
Qed.

Lemma respects_deq d d' : deq d d' -> respects d -> respects d'.
Proof. intros E H s s' Hs. rewrite <- !E. apply H. exact Hs. Qed.
Lemma respects_fold_quant q d vs : respects d -> respects (fold_right (quant_sem q) d vs).
Proof. intros Hd. induction vs; cbn [fold_right]; [exact Hd|destruct q; [apply (respects_upd2 orb)|apply (respects_upd2 andb)]; exact IHvs]. Qed.

(** [d] does not read the variables in [X]; [respects] is the case of no variable, [indep] (with [respects]) the case of one *)
Definition ignores (X : nat -> Prop) (d : den) : Prop := forall s s', (forall z, ~ X z -> s z = s' z) -> d s = d s'.

Lemma ignores_weaken (X Y : nat -> Prop) d : (forall z, Y z -> X z) -> ignores X d -> ignores Y d.
Proof. intros HY H s s' E. apply H. intros z Hz. apply E. intros Yz. exact (Hz (HY z Yz)). Qed.
Lemma ignores_deq X d d' : deq d d' -> ignores X d -> ignores X d'.
Proof. intros E H s s' Hs. rewrite <- !E. apply H, Hs. Qed.
Lemma respects_ignores d : respects d <-> ignores (fun _ => False) d.
Proof. split; intros H s s' E; apply H; intros z; [apply E; intros []|intros _; apply E]. Qed.
Lemma indep_ignores d x : respects d /\ indep d x <-> ignores (eq x) d.
Proof.
  split.
  - intros [Hr Hi] s s' E. rewrite <- (Hi s (s' x)). apply Hr. intros z. unfold upd.
    destruct (Nat.eqb_spec z x) as [->|Hne]; [reflexivity|apply E; congruence].
  - intros H. split; [apply respects_ignores, (ignores_weaken (eq x)); [intros z []|exact H]|].
    intros s v. apply H. intros z Hz. apply upd_other. congruence.
Qed.

Lemma ignores_count X ds : Forall (ignores X) ds -> forall s s', (forall z, ~ X z -> s z = s' z) -> count_den ds s = count_den ds s'.
Proof. induction 1 as [|d l Hd Hl IH]; intros s s' Hs; cbn [count_den]; auto. rewrite (Hd s s' Hs), (IH s s' Hs). reflexivity. Qed.

Lemma ignores_quant1 q v (X : nat -> Prop) d : ignores X d -> ignores (fun z => X z \/ z = v) (quant_sem q v d).
Proof.
  intros H s s' E.
  assert (U : forall c, d (upd s v c) = d (upd s' v c)).
  { intros c. apply H. intros z Hz. unfold upd. destruct (Nat.eqb_spec z v); [reflexivity|apply E; tauto]. }
  destruct q; cbn [quant_sem]; unfold ex1, all1; rewrite !U; reflexivity.
Qed.
Lemma ignores_quant q vs (X : nat -> Prop) d : ignores X d -> ignores (fun z => X z \/ In z vs) (fold_right (quant_sem q) d vs).
Proof.
  intros H. induction vs as [|v vs IH]; cbn [fold_right].
  - apply (ignores_weaken X); [intros z [Hz|[]]; exact Hz|exact H].
  - apply (ignores_weaken (fun z => (X z \/ In z vs) \/ z = v)); [|apply ignores_quant1, IH].
    intros z [Xz|[<-|Hz]]; auto.
Qed.

(** The meaning does not read the variables of [X] when no embedded diagram mentions one, every occurrence of one that [fv]
    counts as free is a name bound in the environment, and the values bound there do not read them. *)
Lemma Den_ignores : forall f r d (X : nat -> Prop), env_all (ignores X) r ->
  (forall z, In z (sub_vars f) -> ~ X z) -> (forall z, fv f z = true -> X z -> exists e, r z = Some e) ->
  Den r f d -> ignores X d.
Proof.
  assert (Hops : forall fs, Forall (fun g => forall r d (X : nat -> Prop), env_all (ignores X) r ->
                   (forall z, In z (sub_vars g) -> ~ X z) -> (forall z, fv g z = true -> X z -> exists e, r z = Some e) ->
                   Den r g d -> ignores X d) fs ->
            forall r ds (X : nat -> Prop), env_all (ignores X) r -> (forall z, In z (flat_map sub_vars fs) -> ~ X z) ->
              (forall z, existsb (fun g => fv g z) fs = true -> X z -> exists e, r z = Some e) -> Dens r fs ds -> Forall (ignores X) ds).
  { intros fs IH r ds X Hr Hns Hfv. rewrite Forall_forall in IH. apply Dens_all. intros g Hg e. apply (IH g Hg); auto.
    - intros z Hz. apply Hns, in_flat_map. eauto.
    - intros z Hz. apply Hfv, existsb_exists. eauto. }
  induction f as [| |v|g IH|q vs g IH|op fs n IH|op l rr IHl IHr|y i g IH|c t e IHc IHt IHe|op l rr IHl IHr|b0|] using form_ind';
    intros r d X Hr Hns Hfv; cbn [sub_vars] in Hns; cbn [fv] in Hfv.
  - cbn [Den]. intros H. apply (ignores_deq _ _ _ (deq_sym _ _ H)). intros s s' _. reflexivity.
  - cbn [Den]. intros H. apply (ignores_deq _ _ _ (deq_sym _ _ H)). intros s s' _. reflexivity.
  - cbn [Den]. intros H. apply (ignores_deq _ _ _ (deq_sym _ _ H)).
    destruct (r v) as [e|] eqn:E; [apply (Hr v e E)|].
    intros s s' Hs. apply Hs. intros Xv. destruct (Hfv v (Nat.eqb_refl v) Xv) as (e & He). congruence.
  - cbn [Den]. intros (d1 & H1 & H2). apply (ignores_deq _ _ _ (deq_sym _ _ H2)).
    intros s s' Hs. rewrite (IH r d1 X Hr Hns Hfv H1 s s' Hs). reflexivity.
  - (* the body may read the quantified variables *)
    cbn [Den]. intros (d1 & H1 & H2). apply (ignores_deq _ _ _ (deq_sym _ _ H2)).
    apply (ignores_weaken (fun z => (X z /\ ~ In z vs) \/ In z vs)); [intros z Xz; destruct (in_dec Nat.eq_dec z vs); auto|].
    apply ignores_quant, (IH (unbind r vs) d1).
    + apply env_all_unbind. intros y e Hy. apply (ignores_weaken X); [tauto|apply (Hr y e Hy)].
    + intros z Hz [Xz _]. exact (Hns z Hz Xz).
    + intros z Hz [Xz Hn]. unfold unbind. destruct (mem_nat z vs) eqn:E; [destruct Hn; apply mem_nat_In, E|].
      apply (Hfv z); [rewrite E; exact Hz|exact Xz].
    + exact H1.
  - rewrite Den_countc. intros (ds & H1 & H2). apply (ignores_deq _ _ _ (deq_sym _ _ H2)).
    intros s s' Hs. rewrite (ignores_count X ds (Hops fs IH r ds X Hr Hns Hfv H1) s s' Hs). reflexivity.
  - rewrite Den_countv. intros (dl & dr & H1 & H2 & H3). apply (ignores_deq _ _ _ (deq_sym _ _ H3)).
    assert (HFl : Forall (ignores X) dl)
      by (apply (Hops l IHl r dl X Hr); auto; intros z Hz; [apply Hns|apply Hfv]; auto with datatypes bool).
    assert (HFr : Forall (ignores X) dr)
      by (apply (Hops rr IHr r dr X Hr); auto; intros z Hz; [apply Hns|apply Hfv]; auto with datatypes bool).
    intros s s' Hs. rewrite (ignores_count X dl HFl s s' Hs), (ignores_count X dr HFr s s' Hs). reflexivity.
  - (* every iterate ignores X, so that the environment stays as the hypotheses want it *)
    cbn [Den]. intros (seq & n & H0 & Hs & Hne & Hst & Hd). apply (ignores_deq _ _ _ (deq_sym _ _ Hd)).
    apply (iterates_all (ignores X) seq n); [| |lia].
    + apply (ignores_deq _ _ _ (deq_sym _ _ H0)). intros s s' _. reflexivity.
    + intros j Hj Ij. apply (IH (bind r y (seq j)) (seq (S j)) X); [apply env_all_bind; assumption|exact Hns| |apply Hs, Hj].
      intros z Hz Xz. unfold bind. destruct (Nat.eqb_spec z y) as [->|Hzy]; [eexists; reflexivity|].
      apply (Hfv z); [|exact Xz]. rewrite Hz. destruct (Nat.eqb_spec y z); [congruence|reflexivity].
  - cbn [Den]. intros (dc & dt & de & H1 & H2 & H3 & H4). apply (ignores_deq _ _ _ (deq_sym _ _ H4)).
    assert (Ic : ignores X dc) by (apply (IHc r dc X Hr); auto; intros z Hz; [apply Hns|apply Hfv]; auto with datatypes bool).
    assert (It : ignores X dt) by (apply (IHt r dt X Hr); auto; intros z Hz; [apply Hns|apply Hfv]; auto with datatypes bool).
    assert (Ie : ignores X de) by (apply (IHe r de X Hr); auto; intros z Hz; [apply Hns|apply Hfv]; auto with datatypes bool).
    intros s s' Hs. rewrite (Ic s s' Hs), (It s s' Hs), (Ie s s' Hs). reflexivity.
  - cbn [Den]. intros (d1 & d2 & H1 & H2 & H3). apply (ignores_deq _ _ _ (deq_sym _ _ H3)).
    assert (I1 : ignores X d1) by (apply (IHl r d1 X Hr); auto; intros z Hz; [apply Hns|apply Hfv]; auto with datatypes bool).
    assert (I2 : ignores X d2) by (apply (IHr r d2 X Hr); auto; intros z Hz; [apply Hns|apply Hfv]; auto with datatypes bool).
    intros s s' Hs. rewrite (I1 s s' Hs), (I2 s s' Hs). reflexivity.
  - cbn [Den]. intros H. apply (ignores_deq _ _ _ (deq_sym _ _ H)).
    intros s s' Hs. apply beval_agree_support. intros z Hz. apply Hs, Hns, Hz.
  - cbn [Den]. intros H. apply (ignores_deq _ _ _ (deq_sym _ _ H)). intros s s' _. reflexivity.
Qed.

Lemma Den_respects : forall f r d, env_respects r -> Den r f d -> respects d.
Proof.
  intros f r d Hr HD. apply respects_ignores. apply (Den_ignores f r d (fun _ => False)); auto.
  - intros y e Hy. apply respects_ignores, (Hr y e Hy).
  - intros z _ [].
Qed.

Lemma Den_indep_fv : forall f r d x, ~ In x (sub_vars f) -> env_respects r -> env_indep r x ->
  (fv f x = true -> exists e, r x = Some e) -> Den r f d -> indep d x.
Proof.
  intros f r d x Hns Hr Hi Hfv HD. apply (indep_ignores d x), (Den_ignores f r d (eq x)); auto.
  - intros y e Hy. apply indep_ignores. split; [apply (Hr y e Hy)|apply (Hi y e Hy)].
  - intros z Hz <-. exact (Hns Hz).
  - intros z Hz <-. exact (Hfv Hz).
Qed.

Lemma Den_indep : forall f r d x, nofsub f -> env_respects r -> env_indep r x ->
  (fv f x = true -> exists e, r x = Some e) -> Den r f d -> indep d x.
Proof. intros f r d x Hns. apply Den_indep_fv. rewrite (nofsub_sub_vars f Hns). intros []. Qed.

Lemma fv_le_free : forall f x, nofsub f -> fv f x = true -> var_is_free f x = true.
Proof.
  intros f x. induction f as [| |v|g IH|q vs g IH|op fs n IH|op l rr IHl IHr|y i g IH|c t e IHc IHt IHe|op l rr IHl IHr|b0|] using form_ind';
    cbn [fv var_is_free nofsub]; auto.
  - destruct (negb (mem_nat x vs)); auto.
  - intros Hns%nofsub_list (g & Hg & Hf)%existsb_exists. apply existsb_exists. exists g. rewrite Forall_forall in IH, Hns. auto.
  - intros [Nl%nofsub_list Nr%nofsub_list] [(g & Hg & Hf)%existsb_exists|(g & Hg & Hf)%existsb_exists]%orb_true_iff;
      apply orb_true_iff; [left|right]; apply existsb_exists; exists g; rewrite Forall_forall in *; auto.
  - intros Hns [H1 H2]%andb_true_iff. apply andb_true_iff. auto.
  - intros (N1 & N2 & N3) [[H|H]%orb_true_iff|H]%orb_true_iff; rewrite !orb_true_iff; auto.
  - intros (N1 & N2) [H|H]%orb_true_iff; apply orb_true_iff; auto.
Qed.

Lemma support_by_Den_indep b (P : nat -> bool) : robdd b ->
  (forall x, P x = false -> indep (bden b) x) -> forall x, In x (support b) -> P x = true.
Proof.
  intros Hrb Hind. apply (support_by_indep b P Hrb). intros x E s.
  exact (eq_trans (Hind x E s true) (eq_sym (Hind x E s false))).
Qed.

Theorem C09_support n f b : nofsub f -> eval_f n f = Some b ->
  forall x, In x (support b) -> var_is_free f x = true.
Proof.
  intros Hns He. destruct (sound n f b (nofsub_wf f Hns) He) as [HD Hrb].
  apply (support_by_Den_indep b (var_is_free f) Hrb). intros x E.
  apply (Den_indep f empty (bden b) x Hns); try apply env_all_empty; [|exact HD].
  intros Hfv. rewrite (fv_le_free f x Hns Hfv) in E. discriminate.
Qed.
Print Assumptions C09_support.
