(** C17: sudoku_gen.  Variable "_c_is_d" is the id [vid c d]; constraints are "exactly one of". *)
From Coq Require Import List Arith Lia PeanoNat.
Import ListNotations.
From Rsbdd Require Import Gen.Queens.

Section Sudoku.
  Variable r : nat.
  Let sq := r * r.
  Let nc := sq * sq.
  Definition vid (c d : nat) : nat := c * (sq + 1) + d.

  (** the loops of sudoku_gen/src/main.rs:84-135 *)
  Definition cell_lists : list (list nat) := map (fun c => map (fun d => vid c d) (seq 1 sq)) (seq 0 nc).
  Definition row_list (i k : nat) : list nat := map (fun j => vid (i * sq + j) k) (seq 0 sq).
  Definition col_list (i k : nat) : list nat := map (fun j => vid (j * sq + i) k) (seq 0 sq).
  Definition rowcol_lists : list (list nat) :=
    flat_map (fun i => flat_map (fun k => [row_list i k; col_list i k]) (seq 1 sq)) (seq 0 sq).
  Definition box_list (i j k : nat) : list nat :=
    map (fun l => vid ((i * r) * sq + (j * r) + ((l / r) * sq + (l mod r))) k) (seq 0 sq).
  Definition box_lists : list (list nat) :=
    flat_map (fun i => flat_map (fun j => map (fun k => box_list i j k) (seq 1 sq)) (seq 0 r)) (seq 0 r).
  (** hints: (cell, digit) pairs with the digit in range *)
  Variable hints : list (nat * nat).
  Hypothesis hints_ok : forall c d, In (c, d) hints -> c < nc /\ 1 <= d <= sq.

  Definition sat (s : asg) : Prop :=
    Forall (fun l => cnt s l = 1) (cell_lists ++ rowcol_lists ++ box_lists) /\
    (forall c d, In (c, d) hints -> s (vid c d) = true).

  (** the reading as a grid [g] (cell -> digit).  [box_cell i j l] is the cell [box_list i j] names at position l, regrouped
      as row * sq + column ([box_cell_block] at the end) *)
  Definition box_cell (i j l : nat) : nat := (i * r + l / r) * sq + (j * r + l mod r).
  Definition once (m : nat) (P : nat -> Prop) : Prop := exists j, j < m /\ P j /\ forall j', j' < m -> P j' -> j' = j.
  Definition grid_ok (g : nat -> nat) : Prop :=
    (forall c, c < nc -> 1 <= g c <= sq) /\
    (forall i k, i < sq -> 1 <= k <= sq -> once sq (fun j => g (i * sq + j) = k)) /\
    (forall i k, i < sq -> 1 <= k <= sq -> once sq (fun j => g (j * sq + i) = k)) /\
    (forall i j k, i < r -> j < r -> 1 <= k <= sq -> once sq (fun l => g (box_cell i j l) = k)) /\
    (forall c d, In (c, d) hints -> g c = d).
  Definition encodes (s : asg) (g : nat -> nat) : Prop :=
    forall c d, c < nc -> 1 <= d <= sq -> s (vid c d) = Nat.eqb (g c) d.

  Lemma once_ext m (P Q : nat -> Prop) : (forall j, j < m -> (P j <-> Q j)) -> (once m P <-> once m Q).
  Proof.
    intros H. split; intros (j & Hj & Pj & Hu); exists j; (split; [exact Hj|]); (split; [apply H; auto|]);
      intros j' Hj' Pj'; apply Hu; auto; apply H; auto.
  Qed.

  Lemma cells_forall (P : list nat -> Prop) :
    Forall P cell_lists <-> forall c, c < nc -> P (map (fun d => vid c d) (seq 1 sq)).
  Proof.
    unfold cell_lists. rewrite Forall_map_seq. split; intros H c Hc; apply H; lia.
  Qed.
  Lemma rowcol_forall (P : list nat -> Prop) :
    Forall P rowcol_lists <-> forall i k, i < sq -> 1 <= k <= sq -> P (row_list i k) /\ P (col_list i k).
  Proof.
    unfold rowcol_lists. rewrite Forall_flat_map_seq. setoid_rewrite Forall_flat_map_seq. split.
    - intros H i k Hi Hk. specialize (H i ltac:(lia) k ltac:(lia)). inversion H as [|? ? Hr Hc]. inversion Hc. auto.
    - intros H i Hi k Hk. destruct (H i k ltac:(lia) ltac:(lia)). auto.
  Qed.
  Lemma box_forall (P : list nat -> Prop) :
    Forall P box_lists <-> forall i j k, i < r -> j < r -> 1 <= k <= sq -> P (box_list i j k).
  Proof.
    unfold box_lists. rewrite Forall_flat_map_seq. setoid_rewrite Forall_flat_map_seq. setoid_rewrite Forall_map_seq.
    split; intros H; intros; apply H; lia.
  Qed.

  Lemma box_index i j l : (i * r) * sq + (j * r) + ((l / r) * sq + (l mod r)) = box_cell i j l.
  Proof. unfold box_cell. ring. Qed.

  Lemma box_list_cells i j k : box_list i j k = map (fun l => vid (box_cell i j l) k) (seq 0 sq).
  Proof. apply map_ext. intros l. rewrite box_index. reflexivity. Qed.

  Lemma rowcol_bound i j : i < sq -> j < sq -> i * sq + j < nc.
  Proof. unfold nc. nia. Qed.
  Lemma block_bound i p : i < r -> p < r -> i * r + p < sq.
  Proof. unfold sq. nia. Qed.
  Lemma box_cell_bound i j l : i < r -> j < r -> l < sq -> box_cell i j l < nc.
  Proof.
    intros Hi Hj Hl. assert (Hr : r <> 0) by lia.
    apply rowcol_bound; apply block_bound; auto; [apply Nat.div_lt_upper_bound|apply Nat.mod_upper_bound]; auto.
  Qed.

  Section WithGrid.
    Variable s : asg.
    Variable g : nat -> nat.
    Hypothesis Henc : encodes s g.

    Lemma enc_true c d : c < nc -> 1 <= d <= sq -> (s (vid c d) = true <-> g c = d).
    Proof. intros Hc Hd. rewrite (Henc c d Hc Hd). apply Nat.eqb_eq. Qed.

    Lemma cell_once c : c < nc -> (cnt s (map (fun d => vid c d) (seq 1 sq)) = 1 <-> 1 <= g c <= sq).
    Proof.
      intros Hc. rewrite cnt_eq1_from. split.
      - intros (d & Hd & Hs & _). apply enc_true in Hs; lia.
      - intros Hg. exists (g c). split; [lia|]. split; [apply enc_true; auto|].
        intros d' Hd' Hs'. apply enc_true in Hs'; auto; lia.
    Qed.

    Lemma list_once (cells : nat -> nat) k : 1 <= k <= sq -> (forall j, j < sq -> cells j < nc) ->
      (cnt s (map (fun j => vid (cells j) k) (seq 0 sq)) = 1 <-> once sq (fun j => g (cells j) = k)).
    Proof.
      intros Hk Hb. rewrite cnt_eq1. apply (once_ext sq (fun j => s (vid (cells j) k) = true)).
      intros j Hj. apply enc_true; auto.
    Qed.

    Lemma sat_encoded : sat s <-> grid_ok g.
    Proof.
      unfold sat, grid_ok. rewrite !Forall_app, cells_forall, rowcol_forall, box_forall. split.
      - intros [(Hcell & Hrc & Hbox) Hh]. split; [|split; [|split; [|split]]].
        + intros c Hc. apply cell_once, Hcell; auto.
        + intros i k Hi Hk. apply (list_once (fun j => i * sq + j)); auto using rowcol_bound. apply (Hrc i k Hi Hk).
        + intros i k Hi Hk. apply (list_once (fun j => j * sq + i)); auto using rowcol_bound. apply (Hrc i k Hi Hk).
        + intros i j k Hi Hj Hk. apply (list_once (box_cell i j)); auto using box_cell_bound.
          rewrite <- box_list_cells. apply Hbox; auto.
        + intros c d Hin. apply enc_true, Hh, Hin; apply (hints_ok c d Hin).
      - intros (Hrange & Hrow & Hcol & Hbx & Hhint). split; [split; [|split]|].
        + intros c Hc. apply cell_once, Hrange; auto.
        + intros i k Hi Hk. split.
          * apply (list_once (fun j => i * sq + j)); auto using rowcol_bound.
          * apply (list_once (fun j => j * sq + i)); auto using rowcol_bound.
        + intros i j k Hi Hj Hk. rewrite box_list_cells. apply (list_once (box_cell i j)); auto using box_cell_bound.
        + intros c d Hin. apply enc_true, Hhint, Hin; apply (hints_ok c d Hin).
    Qed.
  End WithGrid.

  Definition grid_of (s : asg) (c : nat) : nat :=
    match find (fun d => s (vid c d)) (seq 1 sq) with Some d => d | None => 0 end.

  Lemma grid_of_spec s c : cnt s (map (fun d => vid c d) (seq 1 sq)) = 1 ->
    forall d, 1 <= d <= sq -> s (vid c d) = Nat.eqb (grid_of s c) d.
  Proof.
    intros H d Hd. apply cnt_eq1_from in H. destruct H as (d0 & Hd0 & Hs0 & Hu).
    assert (E : grid_of s c = d0).
    { unfold grid_of. destruct (find _ _) as [d1|] eqn:E.
      - apply find_some in E. destruct E as [Hin Hs1]. apply in_seq in Hin. apply Hu; auto.
      - apply find_none with (x := d0) in E; [congruence|apply in_seq; lia]. }
    rewrite E. destruct (Nat.eqb_spec d0 d) as [<-|Hne]; auto.
    destruct (s (vid c d)) eqn:Es; auto. elim Hne. symmetry. apply Hu; auto. lia.
  Qed.

  Theorem C17 s : sat s <-> exists g, grid_ok g /\ encodes s g.
  Proof.
    split.
    - intros H. assert (Henc : encodes s (grid_of s)).
      { intros c d Hc Hd. apply grid_of_spec; auto. destruct H as [H _]. rewrite !Forall_app, cells_forall in H. apply H, Hc. }
      exists (grid_of s). split; auto. apply (sat_encoded s _ Henc), H.
    - intros (g & Hg & Henc). apply (sat_encoded s g Henc), Hg.
  Qed.

  (** a check on [box_cell], not used by [C17]: position [p * r + q] of box (i, j) is the cell in row [i * r + p],
      column [j * r + q] *)
  Lemma box_cell_block i j p q : r <> 0 -> p < r -> q < r -> box_cell i j (p * r + q) = (i * r + p) * sq + (j * r + q).
  Proof.
    intros Hr Hp Hq. unfold box_cell. rewrite Nat.div_add_l by auto. rewrite Nat.div_small by auto.
    rewrite Nat.add_comm with (n := p * r). rewrite Nat.mod_add by auto. rewrite Nat.mod_small by auto. rewrite Nat.add_0_r. reflexivity.
  Qed.
End Sudoku.
Print Assumptions C17.
