(** C15 / C16 / C17 at the level of the text: the token streams the generators print parse to exactly the formulas the theorems
    C15 / C16 / C17 are about.  n_queens_gen and sudoku_gen print one item per line - a hint variable, or a list of variables
    compared with 1 ("[v_0,v_5,] <= 1" with a comma after every element; "[a, b] = 1" joined by commas) - each followed by "&",
    and close with "true"; max_clique_gen prints "-(a & b) &" lines and closes with "true" or the maximality clause. *)
From Coq Require Import List NArith.
Import ListNotations.
From Rsbdd Require Import Lang.Ast Lang.FSem Syntax.Token Syntax.Grammar Syntax.Parser Syntax.ParserComplete Syntax.Printer.
From Rsbdd Require Import Gen.Queens Gen.Sudoku Gen.Forms Gen.Clique.

Fixpoint names (l : list nat) : list token :=
  match l with [] => [] | [v] => [TVar v] | v :: r => TVar v :: TComma :: names r end.
Lemma names_vars l : Gvars (names l) l.
Proof.
  induction l as [|v r IH]; cbn [names]; [constructor|]. destruct r as [|w r']; [constructor|]. apply Gv_cons. exact IH.
Qed.
Lemma names_items l : Gitems (names l ++ [TCloseSquare]) (map FVar l).
Proof.
  induction l as [|v r IH]; cbn [names map app]; [constructor|]. destruct r as [|w r'].
  - apply (Gi_one [TVar v]). apply Gs_closed. constructor.
  - change ((TVar v :: TComma :: names (w :: r')) ++ [TCloseSquare]) with ([TVar v] ++ TComma :: (names (w :: r') ++ [TCloseSquare])).
    apply Gi_cons; [apply Gs_closed; constructor|exact IH].
Qed.

(** [trailing]: a comma after every element (n_queens_gen) rather than between them (sudoku_gen) *)
Inductive item : Type := IVar (v : nat) | ICount (trailing : bool) (op : cop) (cells : list nat).
Definition item_form (i : item) : form :=
  match i with IVar v => FVar v | ICount _ op l => FCountC op (map FVar l) 1 end.
Definition cells_tokens (l : list nat) : list token := flat_map (fun c => [TVar c; TComma]) l ++ [TCloseSquare].
Definition item_tokens (i : item) : list token :=
  match i with
  | IVar v => [TVar v]
  | ICount tr op l => TOpenSquare :: (if tr then cells_tokens l else names l ++ [TCloseSquare]) ++ [tok_of_cop op; TNum 1]
  end.
Fixpoint chain_tokens (is : list item) : list token :=
  match is with [] => [TTrue] | i :: r => item_tokens i ++ TAnd :: chain_tokens r end.

Lemma cells_items l : Gitems (cells_tokens l) (map FVar l).
Proof.
  induction l as [|c l IH]; cbn [cells_tokens flat_map map app]; [constructor|].
  change (TVar c :: TComma :: flat_map (fun c0 => [TVar c0; TComma]) l ++ [TCloseSquare]) with ([TVar c] ++ TComma :: cells_tokens l).
  apply Gi_cons; [apply Gs_closed; constructor|exact IH].
Qed.
Lemma item_closed i : Gclosed (item_tokens i) (item_form i).
Proof.
  destruct i as [v|tr op l]; cbn [item_tokens item_form]; [constructor|].
  apply Gc_countc; [destruct tr; [apply cells_items|apply names_items]|apply cop_of_tok].
Qed.
Lemma sub_parses ts f : Gsub ts f -> parse (ts ++ [TEof]) = Ok f [].
Proof. intros H. apply C08_complete. exists ts. auto. Qed.
Theorem chain_parses is : parse (chain_tokens is ++ [TEof]) = Ok (conj_chain (map item_form is) FTrue) [].
Proof.
  apply sub_parses. induction is as [|i r IH]; cbn [chain_tokens map conj_chain]; [apply Gs_closed; constructor|].
  apply Gs_bin; [apply item_closed|reflexivity|exact IH].
Qed.

Definition queens_items (n : nat) : list item :=
  map (ICount true AtMost) (Queens.d1a n ++ Queens.d1b n ++ Queens.d2a n ++ Queens.d2b n) ++ map (ICount true Exactly) (Queens.rows n ++ Queens.cols n).
Lemma queens_items_form n : conj_chain (map item_form (queens_items n)) FTrue = queens_form n.
Proof. unfold queens_items, queens_form. rewrite map_app, !map_map. reflexivity. Qed.
Theorem C15_text n : parse (chain_tokens (queens_items n) ++ [TEof]) = Ok (queens_form n) [].
Proof. rewrite <- queens_items_form. apply chain_parses. Qed.

Definition sudoku_items (r : nat) (hints : list (nat * nat)) : list item :=
  map (fun h => IVar (Sudoku.vid r (fst h) (snd h))) hints ++
  map (ICount false Exactly) (Sudoku.cell_lists r ++ Sudoku.rowcol_lists r ++ Sudoku.box_lists r).
Lemma sudoku_items_form r hints : conj_chain (map item_form (sudoku_items r hints)) FTrue = sudoku_form r hints.
Proof. unfold sudoku_items, sudoku_form. rewrite map_app, !map_map. reflexivity. Qed.
Theorem C17_tokens r hints : parse (chain_tokens (sudoku_items r hints) ++ [TEof]) = Ok (sudoku_form r hints) [].
Proof. rewrite <- sudoku_items_form. apply chain_parses. Qed.

Section CliqueText.
  Variable vs : list nat.
  Variable comp : list (nat * nat).
  Variable cp : nat -> nat.
  Definition nonedge_tokens (m : nat -> nat) (ab : nat * nat) : list token :=
    [TNot; TOpenParen; TVar (m (fst ab)); TAnd; TVar (m (snd ab)); TCloseParen].
  Lemma nonedge_closed m ab : Gclosed (nonedge_tokens m ab) (nonedge m ab).
  Proof.
    unfold nonedge_tokens, nonedge. apply Gc_not.
    apply (Gc_paren [TVar (m (fst ab)); TAnd; TVar (m (snd ab))]).
    apply (Gs_bin [TVar (m (fst ab))] _ TAnd BAnd [TVar (m (snd ab))]); [constructor|reflexivity|apply Gs_closed; constructor].
  Qed.
  (** closed terms, each followed by "&", then a last part *)
  Fixpoint lines (cs : list (list token)) (last : list token) : list token :=
    match cs with [] => last | c :: r => c ++ TAnd :: lines r last end.
  Lemma lines_sub cs fs last flast :
    Forall2 Gclosed cs fs -> Gsub last flast -> Gsub (lines cs last) (conj_chain fs flast).
  Proof.
    induction 1 as [|c f cs fs Hc _ IH]; intros Hl; cbn [lines conj_chain]; [exact Hl|].
    apply Gs_bin; [exact Hc|reflexivity|apply IH; exact Hl].
  Qed.
  (** closed terms joined by "&" without a trailing one; "true" when there is none *)
  Fixpoint joined (cs : list (list token)) : list token :=
    match cs with [] => [TTrue] | [c] => c | c :: r => c ++ TAnd :: joined r end.
  Lemma joined_sub cs fs : Forall2 Gclosed cs fs -> Gsub (joined cs) (conj_nolast fs).
  Proof.
    induction 1 as [|c f cs fs Hc Hr IH]; cbn [joined conj_nolast]; [apply Gs_closed; constructor|].
    destruct Hr as [|c' f' cs' fs' Hc' Hr']; [apply Gs_closed; exact Hc|].
    apply Gs_bin; [exact Hc|reflexivity|exact IH].
  Qed.
  Lemma constraints_closed m : Forall2 Gclosed (map (nonedge_tokens m) comp) (constraints comp m).
  Proof. unfold constraints. induction comp as [|ab l IH]; cbn [map]; constructor; [apply nonedge_closed|exact IH]. Qed.
  Definition head_tokens : list (list token) :=
    match comp with [] => [[TTrue]] | _ => map (nonedge_tokens (fun v => v)) comp end.
  Lemma head_closed : Forall2 Gclosed head_tokens (match constraints comp (fun v => v) with [] => [FTrue] | cs => cs end).
  Proof.
    unfold head_tokens. pose proof (constraints_closed (fun v => v)) as H. unfold constraints in *.
    destruct comp as [|ab l]; cbn [map] in *; [repeat constructor|exact H].
  Qed.
  Definition all_tokens : list token := lines head_tokens [TTrue].
  Definition max_tokens : list token :=
    lines head_tokens
      (TForall :: names (map cp vs) ++ THash ::
         (TOpenParen :: joined (map (nonedge_tokens cp) comp) ++ [TCloseParen]) ++ TImplies ::
         TOpenSquare :: (names vs ++ [TCloseSquare]) ++ TGeq :: TOpenSquare :: names (map cp vs) ++ [TCloseSquare]).
  Theorem all_parses : parse (all_tokens ++ [TEof]) = Ok (form_all comp) [].
  Proof.
    apply sub_parses. unfold all_tokens, form_all.
    apply lines_sub; [apply head_closed|apply Gs_closed; constructor].
  Qed.
  Theorem max_parses : parse (max_tokens ++ [TEof]) = Ok (form_max vs comp cp) [].
  Proof.
    apply sub_parses. unfold max_tokens, form_max.
    apply lines_sub; [apply head_closed|]. apply Gs_open. apply Go_forall; [apply names_vars|]. unfold body.
    apply Gs_bin; [|reflexivity|].
    - apply Gc_paren. apply joined_sub. apply constraints_closed.
    - apply Gs_closed. apply Gc_countv; [apply names_items|reflexivity|]. apply names_items.
  Qed.
End CliqueText.
Print Assumptions C15_text. Print Assumptions C17_tokens. Print Assumptions max_parses.
