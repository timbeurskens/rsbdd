(** Why the generator suites may compare formulas as multisets (DESIGN.md §4):
    the meaning of a right-nested "&"-chain depends only on the multiset of its conjuncts, and the
    meaning of a counting constraint only on the multiset of its operands. *)
From Coq Require Import List Bool ZArith Lia Permutation.
Import ListNotations.
From Rsbdd Require Import Core.Bdd Lang.Ast Lang.Den Lang.FSem.

Lemma forallb_perm {A} (p : A -> bool) l l' : Permutation l l' -> forallb p l = forallb p l'.
Proof.
  induction 1; cbn [forallb]; auto.
  - rewrite IHPermutation. reflexivity.
  - rewrite !andb_assoc, (andb_comm (p y)). reflexivity.
  - congruence.
Qed.

Theorem conj_chain_perm cs cs' last s : Permutation cs cs' ->
  fsem (conj_chain cs last) s = fsem (conj_chain cs' last) s.
Proof. intros H. rewrite !fsem_conj_chain, (forallb_perm _ _ _ H). reflexivity. Qed.

Lemma count_den_perm ds ds' s : Permutation ds ds' -> count_den ds s = count_den ds' s.
Proof. induction 1; cbn [count_den]; lia. Qed.

Theorem countc_perm op fs fs' n s : Permutation fs fs' -> fsem (FCountC op fs n) s = fsem (FCountC op fs' n) s.
Proof. intros H. cbn [fsem]. rewrite (count_den_perm _ _ s (Permutation_map fsem H)). reflexivity. Qed.
Theorem countv_perm op l l' r r' s : Permutation l l' -> Permutation r r' ->
  fsem (FCountV op l r) s = fsem (FCountV op l' r') s.
Proof.
  intros H1 H2. cbn [fsem]. rewrite (count_den_perm _ _ s (Permutation_map fsem H1)), (count_den_perm _ _ s (Permutation_map fsem H2)). reflexivity.
Qed.
Print Assumptions conj_chain_perm.
