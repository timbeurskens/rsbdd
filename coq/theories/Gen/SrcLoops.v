(** The loop nests of the generators as they stand in the SOURCE.  A translator (lib/vlib/srcloops.py) re-reads the `for`
    loops of n_queens_gen/src/main.rs and sudoku_gen/src/main.rs from /repo on every run - ranges, index expressions, the comparison written after each
    list - and emits them as Gallina list comprehensions over [seq]; the lemmas here are what its generated proofs apply.
    Rust's [a..b] is [seq a (b - a)], [a..=b] is [seq a (S b - a)]; usize subtraction is modelled by truncated subtraction
    and every subtraction of the source gets its own no-underflow obligation in the generated file. *)
From Coq Require Import List Arith Lia PeanoNat.
Import ListNotations.
From Rsbdd Require Import Lang.Ast Gen.Queens Gen.Sudoku Gen.GenText.

Definition rng (a b : nat) : list nat := seq a (b - a).            (* a..b *)
Definition rngi (a b : nat) : list nat := seq a (S b - a).         (* a..=b *)

Lemma fam_ext {A} (f g : nat -> A) a b a' b' :
  a = a' -> b = b' -> (forall i, a <= i < a + b -> f i = g i) -> map f (seq a b) = map g (seq a' b').
Proof. intros <- <- H. apply map_ext_in. intros i Hi. apply in_seq in Hi. apply H. exact Hi. Qed.

(** the six families in the order and with the comparisons the generator writes them; the translator ends every
    family it prints with [++], hence the closing [++ []] *)
Lemma queens_items_six n f1 f2 f3 f4 f5 f6 :
  f1 = Queens.d1a n -> f2 = Queens.d1b n -> f3 = Queens.d2a n -> f4 = Queens.d2b n -> f5 = Queens.rows n -> f6 = Queens.cols n ->
  map (ICount true AtMost) f1 ++ map (ICount true AtMost) f2 ++ map (ICount true AtMost) f3 ++ map (ICount true AtMost) f4 ++
  map (ICount true Exactly) f5 ++ map (ICount true Exactly) f6 ++ [] = queens_items n.
Proof. intros -> -> -> -> -> ->. unfold queens_items. rewrite !map_app, app_nil_r, <- !app_assoc. reflexivity. Qed.

Lemma flatmap_ext {A} (f g : nat -> list A) a b a' b' :
  a = a' -> b = b' -> (forall i, a <= i < a + b -> f i = g i) -> flat_map f (seq a b) = flat_map g (seq a' b').
Proof. intros Ha Hb H. rewrite !flat_map_concat_map. f_equal. apply fam_ext; assumption. Qed.
Lemma flat_map_single {A B} (f : A -> B) l : flat_map (fun x => [f x]) l = map f l.
Proof. induction l as [|x l IH]; cbn [flat_map map app]; [reflexivity|]. rewrite IH. reflexivity. Qed.

(** equality of two comprehensions over [seq], by extensionality down to arithmetic on the indices *)
Ltac fam :=
  cbv zeta;
  lazymatch goal with
  | |- map _ (seq _ _) = map _ (seq _ _) => apply fam_ext; [first [reflexivity | lia | nia] | first [reflexivity | lia | nia] | intros ? ?; fam]
  | |- flat_map _ (seq _ _) = flat_map _ (seq _ _) => apply flatmap_ext; [first [reflexivity | lia | nia] | first [reflexivity | lia | nia] | intros ? ?; fam]
  | |- flat_map (fun _ => [_]) (seq _ _) = map _ (seq _ _) => rewrite flat_map_single; fam
  | |- _ :: _ = _ :: _ => f_equal; fam
  | |- @nil _ = @nil _ => reflexivity
  | |- Sudoku.vid _ _ _ = Sudoku.vid _ _ _ => first [reflexivity | f_equal; first [reflexivity | lia | nia]]
  | |- @eq nat _ _ => first [reflexivity | lia | nia]
  end.

Lemma sudoku_items_three r hints f1 f2 f3 :
  f1 = Sudoku.cell_lists r -> f2 = Sudoku.rowcol_lists r -> f3 = Sudoku.box_lists r ->
  map (fun h => IVar (Sudoku.vid r (fst h) (snd h))) hints ++
  map (ICount false Exactly) f1 ++ map (ICount false Exactly) f2 ++ map (ICount false Exactly) f3 ++ [] = sudoku_items r hints.
Proof. intros -> -> ->. unfold sudoku_items. rewrite !map_app, app_nil_r. reflexivity. Qed.
