(** C18: random_graph_gen.  The shuffle is an arbitrary permutation (section variable). *)
From Coq Require Import List Bool Lia PeanoNat Permutation.
Import ListNotations.

Definition edge := (nat * nat)%type.                       (* vertex i is printed as "v<i>" *)

(** [generate_graph] of random_graph_gen: all candidate edges *)
Definition cand_directed (V : nat) : list edge :=
  flat_map (fun i => flat_map (fun j => if Nat.eqb i j then [] else [(i, j)]) (seq 0 V)) (seq 0 V).
Definition cand_undirected (V : nat) : list edge :=
  flat_map (fun i => map (fun j => (i, j)) (seq (S i) (V - S i))) (seq 0 V).
Definition candidates (V : nat) (u : bool) : list edge := if u then cand_undirected V else cand_directed V.

Lemma NoDup_app_iff {A} (a b : list A) : NoDup (a ++ b) <-> NoDup a /\ NoDup b /\ forall x, In x a -> ~ In x b.
Proof.
  induction a as [|y a IH]; cbn [app].
  - split; [intros H; split; [constructor|split; [exact H|intros x []]]|tauto].
  - rewrite !NoDup_cons_iff, IH, in_app_iff. split.
    + intros (Hy & Ha & Hb & Hd). repeat split; auto. intros x [<-|Hx]; auto.
    + intros ((Hy & Ha) & Hb & Hd). repeat split; auto.
      * intros [H|H]; [auto|exact (Hd y (or_introl eq_refl) H)].
      * intros x Hx. apply Hd. right. exact Hx.
Qed.

(** both candidate lists are made of the pairs (i, j) with i from [l] and j from [L i] *)
Definition dpairs (L : nat -> list nat) (l : list nat) : list edge := flat_map (fun i => map (pair i) (L i)) l.
Lemma in_dpairs L l a b : In (a, b) (dpairs L l) <-> In a l /\ In b (L a).
Proof.
  unfold dpairs. rewrite in_flat_map. split.
  - intros (i & Hi & H). apply in_map_iff in H. destruct H as (j & E & Hj). inversion E; subst. auto.
  - intros [Ha Hb]. exists a. split; auto. apply in_map, Hb.
Qed.
Lemma NoDup_dpairs L l : NoDup l -> (forall i, NoDup (L i)) -> NoDup (dpairs L l).
Proof.
  intros Hl HL. induction Hl as [|x l Hx Hl IH]; cbn [dpairs flat_map]; [constructor|].
  apply NoDup_app_iff. split; [|split; [exact IH|]].
  - apply FinFun.Injective_map_NoDup; [intros j j' E; inversion E; reflexivity|apply HL].
  - intros [a b] H1 H2. apply in_map_iff in H1. destruct H1 as (j & E & _). inversion E; subst.
    apply in_dpairs in H2. apply Hx, H2.
Qed.
Lemma cand_undirected_dpairs V : cand_undirected V = dpairs (fun i => seq (S i) (V - S i)) (seq 0 V).
Proof. reflexivity. Qed.
Lemma cand_directed_dpairs V :
  cand_directed V = dpairs (fun i => filter (fun j => negb (Nat.eqb i j)) (seq 0 V)) (seq 0 V).
Proof.
  apply flat_map_ext. intros i. induction (seq 0 V) as [|j l IH]; cbn [flat_map filter map]; [reflexivity|].
  rewrite IH. destruct (Nat.eqb i j); reflexivity.
Qed.

Lemma in_cand_directed V a b : In (a, b) (cand_directed V) <-> a < V /\ b < V /\ a <> b.
Proof. rewrite cand_directed_dpairs, in_dpairs, filter_In, !in_seq, negb_true_iff, Nat.eqb_neq. lia. Qed.
Lemma in_cand_undirected V a b : In (a, b) (cand_undirected V) <-> a < b /\ b < V.
Proof. rewrite cand_undirected_dpairs, in_dpairs, !in_seq. lia. Qed.
Lemma candidates_spec V u a b : In (a, b) (candidates V u) <-> a < V /\ b < V /\ a <> b /\ (u = true -> a < b).
Proof.
  destruct u; cbn [candidates]; [rewrite in_cand_undirected|rewrite in_cand_directed]; intuition (lia || discriminate).
Qed.
Lemma NoDup_candidates V u : NoDup (candidates V u).
Proof.
  destruct u; cbn [candidates]; [rewrite cand_undirected_dpairs|rewrite cand_directed_dpairs]; apply NoDup_dpairs; intros;
    try apply NoDup_filter; apply seq_NoDup.
Qed.

(** V (V - 1) / 2 is the number of edges --complete with -u asks for (main.rs:64-68); no theorem here uses this count *)
Lemma length_cand_undirected V : 2 * length (cand_undirected V) = V * (V - 1).
Proof.
  unfold cand_undirected, edge.
  (* the last k outer iterations; with the + k the induction step is linear in k * k *)
  assert (H : forall k, k <= V -> 2 * length (flat_map (fun i => map (fun j => (i, j)) (seq (S i) (V - S i))) (seq (V - k) k)) + k = k * k).
  { induction k as [|k IH]; intros Hk; [reflexivity|].
    cbn [seq flat_map]. rewrite app_length, map_length, seq_length.
    replace (S (V - S k)) with (V - k) by lia. specialize (IH ltac:(lia)). lia. }
  specialize (H V (le_n _)). rewrite Nat.sub_diag in H. rewrite Nat.mul_sub_distr_l. lia.
Qed.

(** what an answer to the request (V, E, u) has to be: E distinct candidate edges *)
Definition admissible (V E : nat) (u : bool) (out : list edge) : Prop :=
  length out = E /\ NoDup out /\ incl out (candidates V u).

Lemma admissible_props V E u out : admissible V E u out ->
  length out = E /\ NoDup out /\
  (forall a b, In (a, b) out -> a <> b /\ a < V /\ b < V) /\
  (u = true -> forall a b, In (a, b) out -> ~ In (b, a) out).
Proof.
  intros (Hl & Hn & Hc). split; [exact Hl|]. split; [exact Hn|]. split.
  - intros a b H. apply Hc, candidates_spec in H. tauto.
  - intros Hu a b H1 H2. apply Hc, candidates_spec in H1. apply Hc, candidates_spec in H2. intuition lia.
Qed.

Section Gen.
  Variable shuffle : list edge -> list edge.
  Hypothesis shuffle_perm : forall l, Permutation (shuffle l) l.

  (** shuffle, then take the first E, or fail ([edges.get(0..num_edges)]) *)
  Definition gen_graph (V E : nat) (u : bool) : option (list edge) :=
    let c := shuffle (candidates V u) in
    if Nat.leb E (length c) then Some (firstn E c) else None.

  Lemma gen_admissible V E u :
    match gen_graph V E u with Some out => admissible V E u out | None => length (candidates V u) < E end.
  Proof.
    unfold gen_graph. pose proof (shuffle_perm (candidates V u)) as Hp. rewrite (Permutation_length Hp).
    destruct (Nat.leb_spec E (length (candidates V u))) as [Hle|Hgt]; [|exact Hgt].
    (* the answer is a prefix of a permutation of the candidates *)
    set (c := shuffle (candidates V u)) in *. pose proof (firstn_skipn E c) as Hc. split; [|split].
    - apply firstn_length_le. rewrite (Permutation_length Hp). exact Hle.
    - apply (NoDup_app_iff (firstn E c) (skipn E c)). rewrite Hc.
      apply (Permutation_NoDup (Permutation_sym Hp)), NoDup_candidates.
    - intros e He. apply (Permutation_in _ Hp). rewrite <- Hc. apply in_or_app. left. exact He.
  Qed.

  Theorem C18_gen V E u :
    match gen_graph V E u with
    | Some out =>
        length out = E /\ NoDup out /\
        (forall a b, In (a, b) out -> a <> b /\ a < V /\ b < V) /\
        (u = true -> forall a b, In (a, b) out -> ~ In (b, a) out)
    | None => length (candidates V u) < E
    end.
  Proof. pose proof (gen_admissible V E u) as H. destruct (gen_graph V E u); [apply admissible_props|]; exact H. Qed.
End Gen.
Print Assumptions C18_gen.
