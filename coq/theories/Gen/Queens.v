(** C15: n_queens_gen emits constraints whose models are exactly the n-queens solutions. *)
From Coq Require Import List Arith Lia PeanoNat.
Import ListNotations.

Definition asg := nat -> bool.
Definition cnt (s : asg) (l : list nat) := length (filter s l).

(* the generator, loop by loop (n_queens_gen/src/main.rs); each family is a [nest] (below) by conversion, which
   [apply nest_apart] and the [change] in C15 rely on *)
Definition d1a n := map (fun i => map (fun j => i + j * (n + 1)) (seq 0 (n - i))) (seq 0 n).
Definition d1b n := map (fun i => map (fun j => i * n + j * (n + 1)) (seq 0 (n - i))) (seq 1 (n - 1)).
Definition d2a n := map (fun i => map (fun j => i + j * (n - 1)) (seq 0 (S i))) (seq 0 n).
Definition d2b n := map (fun i => map (fun j => n * (n - j) - (i - j)) (seq 0 i)) (seq 1 (n - 1)).
Definition rows n := map (fun i => map (fun j => j + i * n) (seq 0 n)) (seq 0 n).
Definition cols n := map (fun i => map (fun j => i + j * n) (seq 0 n)) (seq 0 n).
Definition sat n (s : asg) :=
  Forall (fun l => cnt s l <= 1) (d1a n ++ d1b n ++ d2a n ++ d2b n) /\
  Forall (fun l => cnt s l = 1) (rows n ++ cols n).

Definition cell n r c := r * n + c.
Definition q n (s : asg) r c := s (cell n r c) = true.
Definition sol n (s : asg) :=
  (forall r, r < n -> exists c, c < n /\ q n s r c /\ forall c', c' < n -> q n s r c' -> c' = c) /\
  (forall c, c < n -> exists r, r < n /\ q n s r c /\ forall r', r' < n -> q n s r' c -> r' = r) /\
  (forall r1 c1 r2 c2, r1 < n -> c1 < n -> r2 < n -> c2 < n -> q n s r1 c1 -> q n s r2 c2 ->
     (r1 + c2 = r2 + c1 \/ r1 + c1 = r2 + c2) -> r1 = r2 /\ c1 = c2).

Lemma cnt_cons s x l : cnt s (x :: l) = (if s x then 1 else 0) + cnt s l.
Proof. unfold cnt. cbn [filter]. destruct (s x); reflexivity. Qed.

Lemma Forall_seq (P : nat -> Prop) a k : Forall P (seq a k) <-> forall i, a <= i < a + k -> P i.
Proof. rewrite Forall_forall. split; intros H i Hi; apply H, in_seq, Hi. Qed.
(* a loop [for i in a..a+k] that pushes [f i]; the second lemma (extends by [f i]) is for Sudoku.v *)
Lemma Forall_map_seq {A} (P : A -> Prop) f a k : Forall P (map f (seq a k)) <-> forall i, a <= i < a + k -> P (f i).
Proof. rewrite Forall_map. apply Forall_seq. Qed.
Lemma Forall_flat_map_seq {A} (P : A -> Prop) f a k :
  Forall P (flat_map f (seq a k)) <-> forall i, a <= i < a + k -> Forall P (f i).
Proof. rewrite Forall_flat_map. apply Forall_seq. Qed.

Lemma cnt_0 s l : cnt s l = 0 <-> Forall (fun x => s x = false) l.
Proof.
  induction l as [|x l IH]; [split; constructor|]. rewrite cnt_cons, Forall_cons_iff, <- IH.
  destruct (s x); split; try lia; intros [? ?]; auto; discriminate.
Qed.

Lemma cnt_le1 (s : asg) (f : nat -> nat) : forall m a,
  (cnt s (map f (seq a m)) <= 1 <-> forall j1 j2, a <= j1 < a + m -> a <= j2 < a + m -> s (f j1) = true -> s (f j2) = true -> j1 = j2).
Proof.
  induction m as [|m IH]; intros a; cbn [seq map].
  - split; [intros _ j1 j2 H; lia|cbn; lia].
  - rewrite cnt_cons. destruct (s (f a)) eqn:E.
    + (* a is chosen: the others are not, that is, whatever is chosen is a *)
      transitivity (cnt s (map f (seq (S a) m)) = 0); [lia|]. rewrite cnt_0, Forall_map_seq.
      transitivity (forall j, a <= j < a + S m -> s (f j) = true -> j = a); split.
      * intros H j Hj Sj. destruct (Nat.eq_dec j a); auto. rewrite H in Sj by lia. discriminate.
      * intros H j Hj. destruct (s (f j)) eqn:Ej; auto. apply H in Ej; lia.
      * intros H j1 j2 H1 H2 S1 S2. rewrite (H j1), (H j2); auto.
      * intros H j Hj Sj. apply H; auto; lia.
    + rewrite Nat.add_0_l, IH.
      split; intros H j1 j2 H1 H2 S1 S2; [assert (j1 <> a /\ j2 <> a) by (split; congruence)|]; apply H; auto; lia.
Qed.

Lemma cell_inj n r c r' c' : c < n -> c' < n -> cell n r c = cell n r' c' -> r = r' /\ c = c'.
Proof. unfold cell. rewrite (Nat.mul_comm r), (Nat.mul_comm r'). apply Nat.div_mod_unique. Qed.

Lemma cnt_eq1_from (s : asg) (f : nat -> nat) m a :
  cnt s (map f (seq a m)) = 1 <->
  exists j, a <= j < a + m /\ s (f j) = true /\ forall j', a <= j' < a + m -> s (f j') = true -> j' = j.
Proof.
  split.
  - intros H.
    assert (Hle : cnt s (map f (seq a m)) <= 1) by lia. rewrite cnt_le1 in Hle.
    destruct (filter s (map f (seq a m))) as [|x l] eqn:Ef; [unfold cnt in H; rewrite Ef in H; discriminate|].
    assert (Hin : In x (filter s (map f (seq a m)))) by (rewrite Ef; left; auto).
    apply filter_In in Hin. destruct Hin as [Hin Hs]. apply in_map_iff in Hin. destruct Hin as (j & <- & Hj).
    apply in_seq in Hj. exists j. split; [lia|]. split; auto.
  - intros (j & Hj & Hs & Hu).
    assert (Hle : cnt s (map f (seq a m)) <= 1).
    { rewrite cnt_le1. intros j1 j2 H1 H2 S1 S2. rewrite (Hu j1), (Hu j2); auto. }
    assert (Hne : cnt s (map f (seq a m)) <> 0).
    { rewrite cnt_0, Forall_map_seq. intros H. rewrite H in Hs by lia. discriminate. }
    lia.
Qed.

Lemma cnt_eq1 (s : asg) (f : nat -> nat) m :
  cnt s (map f (seq 0 m)) = 1 <->
  exists j, j < m /\ s (f j) = true /\ forall j', j' < m -> s (f j') = true -> j' = j.
Proof.
  rewrite cnt_eq1_from. split; intros (j & Hj & Hs & Hu); exists j; (split; [lia|]); split; auto; intros j' Hj'; apply Hu; lia.
Qed.

(* a loop nest [for i in a..a+k { for j in 0..len i { f i j } }] as a family of lists *)
Definition nest (f : nat -> nat -> nat) (len : nat -> nat) a k := map (fun i => map (f i) (seq 0 (len i))) (seq a k).

Lemma nest_le1 s f len a k : Forall (fun l => cnt s l <= 1) (nest f len a k) <->
  forall i j1 j2, a <= i < a + k -> j1 < len i -> j2 < len i -> s (f i j1) = true -> s (f i j2) = true -> j1 = j2.
Proof.
  unfold nest. rewrite Forall_map_seq. split.
  - intros H i j1 j2 Hi H1 H2. apply (proj1 (cnt_le1 s (f i) (len i) 0) (H i Hi)); lia.
  - intros H i Hi. apply cnt_le1. intros j1 j2 H1 H2. apply (H i); lia.
Qed.

Lemma nest_eq1 s f g len k : (forall i j, f i j = g i j) ->
  Forall (fun l => cnt s l = 1) (nest f len 0 k) <->
  forall i, i < k -> exists j, j < len i /\ s (g i j) = true /\ forall j', j' < len i -> s (g i j') = true -> j' = j.
Proof.
  intros E. replace (nest f len 0 k) with (nest g len 0 k) by (apply map_ext; intros i; apply map_ext; auto).
  unfold nest. rewrite Forall_map_seq. split; intros H i Hi; apply cnt_eq1, H; lia.
Qed.

(* no two queens on distinct board cells related by D *)
Definition apart n s (D : nat -> nat -> nat -> nat -> Prop) := forall r1 c1 r2 c2,
  r1 < n -> c1 < n -> r2 < n -> c2 < n -> q n s r1 c1 -> q n s r2 c2 -> D r1 c1 r2 c2 -> r1 = r2 /\ c1 = c2.

(* The lists of a nest say [apart D] when any two D-related cells are positions of one list and any two positions of one
   list are D-related cells.  All arithmetic about a family of diagonals is in these two facts.  For d1a, d1b each is
   left to [lia] as one conjunction; d2a first turns [S m - 1] into [m], d2b takes the product apart in [d2b_cell].  Where
   the family allows, the witnesses of differences come in as sums ([Nat.le_exists_sub]). *)
Lemma nest_apart s n f len a k (D : nat -> nat -> nat -> nat -> Prop) :
  (forall r1 c1 r2 c2, r1 < n -> c1 < n -> r2 < n -> c2 < n -> D r1 c1 r2 c2 -> exists i j1 j2,
     (a <= i < a + k /\ j1 < len i /\ j2 < len i) /\ f i j1 = cell n r1 c1 /\ f i j2 = cell n r2 c2 /\
     (j1 = j2 -> r1 = r2 /\ c1 = c2)) ->
  (forall i j1 j2, a <= i < a + k -> j1 < len i -> j2 < len i -> exists r1 c1 r2 c2,
     (r1 < n /\ c1 < n /\ r2 < n /\ c2 < n /\ D r1 c1 r2 c2) /\ f i j1 = cell n r1 c1 /\ f i j2 = cell n r2 c2 /\
     (r1 = r2 /\ c1 = c2 -> j1 = j2)) ->
  Forall (fun l => cnt s l <= 1) (nest f len a k) <-> apart n s D.
Proof.
  intros Hb Ha. rewrite nest_le1. unfold apart, q. split.
  - intros H r1 c1 r2 c2 Hr1 Hc1 Hr2 Hc2 Q1 Q2 HD.
    destruct (Hb r1 c1 r2 c2 Hr1 Hc1 Hr2 Hc2 HD) as (i & j1 & j2 & (Hi & H1 & H2) & E1 & E2 & Hj).
    rewrite <- E1 in Q1. rewrite <- E2 in Q2. apply Hj, (H i); auto.
  - intros H i j1 j2 Hi H1 H2.
    destruct (Ha i j1 j2 Hi H1 H2) as (r1 & c1 & r2 & c2 & (Hr1 & Hc1 & Hr2 & Hc2 & HD) & -> & -> & Hj).
    intros S1 S2. apply Hj, (H r1 c1 r2 c2); auto.
Qed.

(* a falling diagonal (r - c constant) is list c - r of d1a on or above the main diagonal, list r - c of d1b below it *)
Lemma d1a_apart n s :
  Forall (fun l => cnt s l <= 1) (d1a n) <-> apart n s (fun r1 c1 r2 c2 => r1 <= c1 /\ r1 + c2 = r2 + c1).
Proof.
  apply nest_apart; unfold cell.
  - intros r1 c1 r2 c2 Hr1 Hc1 Hr2 Hc2 [Hle Hd]. destruct (Nat.le_exists_sub _ _ Hle) as (d & -> & _).
    exists d, r1, r2. lia.
  - intros i j1 j2 Hi H1 H2. exists j1, (i + j1), j2, (i + j2). lia.
Qed.

Lemma d1b_apart n s :
  Forall (fun l => cnt s l <= 1) (d1b n) <-> apart n s (fun r1 c1 r2 c2 => c1 < r1 /\ r1 + c2 = r2 + c1).
Proof.
  apply nest_apart; unfold cell.
  - intros r1 c1 r2 c2 Hr1 Hc1 Hr2 Hc2 [Hlt Hd]. destruct (Nat.le_exists_sub _ _ Hlt) as (d & -> & _).
    exists (S d), c1, c2. lia.
  - intros i j1 j2 Hi H1 H2. exists (i + j1), j1, (i + j2), j2. lia.
Qed.

(* a rising diagonal (r + c constant) is list r + c of d2a down to the anti-diagonal, list 2n - 1 - (r + c) of d2b,
   read from the bottom row upwards, beyond it *)
Lemma d2a_apart n s :
  Forall (fun l => cnt s l <= 1) (d2a n) <-> apart n s (fun r1 c1 r2 c2 => r1 + c1 < n /\ r1 + c1 = r2 + c2).
Proof.
  apply nest_apart; unfold cell.
  - intros r1 c1 r2 c2 Hr1 Hc1 Hr2 Hc2 [Hlt Hd]. exists (r1 + c1), r1, r2.
    destruct n as [|m]; [lia|]. rewrite Nat.sub_succ, Nat.sub_0_r. lia.
  - intros i j1 j2 Hi H1 H2. exists j1, (i - j1), j2, (i - j2).
    destruct n as [|m]; [lia|]. rewrite Nat.sub_succ, Nat.sub_0_r. lia.
Qed.

Lemma d2b_cell n i j r c : j < i /\ r + j + 1 = n /\ c + i = n + j -> n * (n - j) - (i - j) = cell n r c.
Proof.
  unfold cell. intros (Hj & Hr & Hc). replace (n - j) with (S r) by lia.
  rewrite Nat.mul_succ_r, (Nat.mul_comm n). generalize (r * n). lia.
Qed.

Lemma d2b_apart n s :
  Forall (fun l => cnt s l <= 1) (d2b n) <-> apart n s (fun r1 c1 r2 c2 => n <= r1 + c1 /\ r1 + c1 = r2 + c2).
Proof.
  apply nest_apart.
  - (* list (n - 1 - r1) + (n - 1 - c1) + 1, positions n - 1 - r1 and n - 1 - r2 *)
    intros r1 c1 r2 c2 Hr1 Hc1 Hr2 Hc2 [Hle Hd].
    destruct (Nat.le_exists_sub _ _ Hr1) as (j1 & E1 & _), (Nat.le_exists_sub _ _ Hr2) as (j2 & E2 & _),
      (Nat.le_exists_sub _ _ Hc1) as (e & E3 & _).
    exists (S (j1 + e)), j1, j2. rewrite (d2b_cell n _ j1 r1 c1), (d2b_cell n _ j2 r2 c2) by lia. lia.
  - (* position j of list i is row n - 1 - j, column n - i + j; with n = d + S i and i = a + S j that is d + S a, S d + j *)
    intros i j1 j2 Hi H1 H2. destruct (Nat.le_exists_sub (S i) n) as (d & E & _); [lia|].
    destruct (Nat.le_exists_sub _ _ H1) as (a1 & E1 & _), (Nat.le_exists_sub _ _ H2) as (a2 & E2 & _).
    exists (d + S a1), (S d + j1), (d + S a2), (S d + j2).
    rewrite (d2b_cell n i j1 (d + S a1) (S d + j1)), (d2b_cell n i j2 (d + S a2) (S d + j2)) by lia. lia.
Qed.

Lemma diag_apart n s : Forall (fun l => cnt s l <= 1) (d1a n ++ d1b n ++ d2a n ++ d2b n) <->
  apart n s (fun r1 c1 r2 c2 => r1 + c2 = r2 + c1 \/ r1 + c1 = r2 + c2).
Proof.
  rewrite !Forall_app, d1a_apart, d1b_apart, d2a_apart, d2b_apart. split.
  - intros (A1 & A2 & A3 & A4) r1 c1 r2 c2 ? ? ? ? Q1 Q2 [Hd|Hd].
    + destruct (le_lt_dec r1 c1); [apply A1|apply A2]; auto.
    + destruct (le_lt_dec n (r1 + c1)); [apply A4|apply A3]; auto.
  - intros HD. repeat apply conj; intros r1 c1 r2 c2 ? ? ? ? Q1 Q2 [_ Hd]; apply HD; auto.
Qed.

Theorem C15 n s : 1 <= n -> (sat n s <-> sol n s).
Proof.
  intros _. unfold sat, sol. rewrite diag_apart, Forall_app.
  change (rows n) with (nest (fun i j => j + i * n) (fun _ => n) 0 n).
  change (cols n) with (nest (fun i j => i + j * n) (fun _ => n) 0 n).
  rewrite (nest_eq1 s _ (cell n)), (nest_eq1 s _ (fun i j => cell n j i)) by (intros; unfold cell; lia).
  unfold apart, q. tauto.
Qed.
Print Assumptions C15.
