(** C16: the copy prefix chosen by max_clique_gen is fresh.
    [prefix := "v_"; while some vertex name starts with prefix { prefix.push('_') }] *)
From Coq Require Import List NArith Bool Lia.
Import ListNotations.
Local Open Scope N_scope.

Definition name := list N.
Fixpoint starts_with (p w : name) : bool :=
  match p, w with
  | [], _ => true
  | x :: p', y :: w' => (x =? y) && starts_with p' w'
  | _ :: _, [] => false
  end.
Lemma starts_with_spec p w : starts_with p w = true <-> exists r, w = p ++ r.
Proof.
  revert w. induction p as [|x p IH]; intros w; cbn [starts_with].
  - split; [intros _; exists w; reflexivity|auto].
  - destruct w as [|y w]; [split; [discriminate|intros (r & H); discriminate]|].
    rewrite andb_true_iff, N.eqb_eq, IH. split.
    + intros [-> (r & ->)]. exists r. reflexivity.
    + intros (r & H). inversion H; subst. split; auto. exists r. reflexivity.
Qed.

(** the while loop, on fuel.  [S (maxlen vs)] rounds suffice: each round lengthens the prefix, and a prefix longer than
    every name is fresh ([too_long]) *)
Fixpoint choose (fuel : nat) (p : name) (vs : list name) : name :=
  match fuel with
  | O => p
  | S k => if existsb (starts_with p) vs then choose k (p ++ [95]) vs else p
  end.
Definition maxlen (vs : list name) : nat := fold_right (fun v m => Nat.max (length v) m) 0%nat vs.
Definition copy_prefix (vs : list name) : name := choose (S (maxlen vs)) [118; 95] vs.   (* "v_" *)

Lemma maxlen_ge vs v : In v vs -> (length v <= maxlen vs)%nat.
Proof.
  induction vs as [|x vs IH]; intros Hin; [destruct Hin|]. cbn [maxlen fold_right]. destruct Hin as [->|H]; [lia|].
  specialize (IH H). unfold maxlen in IH. lia.
Qed.

Lemma too_long p vs v : In v vs -> (maxlen vs < length p)%nat -> starts_with p v = false.
Proof.
  intros Hv H. destruct (starts_with p v) eqn:E; auto. apply starts_with_spec in E. destruct E as (r & ->).
  pose proof (maxlen_ge vs _ Hv) as Hl. rewrite app_length in Hl. lia.
Qed.

Lemma choose_fresh vs v : In v vs -> forall fuel p, (maxlen vs < length p + fuel)%nat -> starts_with (choose fuel p vs) v = false.
Proof.
  intros Hv. induction fuel as [|k IH]; intros p H; cbn [choose].
  - apply (too_long p vs v Hv). lia.
  - destruct (existsb (starts_with p) vs) eqn:E; [apply IH; rewrite app_length; cbn [length]; lia|].
    destruct (starts_with p v) eqn:Es; auto. rewrite <- E. symmetry. apply existsb_exists. exists v. auto.
Qed.

Theorem copy_prefix_fresh vs : forall v, In v vs -> starts_with (copy_prefix vs) v = false.
Proof. intros v Hv. apply (choose_fresh vs v Hv). cbn [length]. lia. Qed.

(** what Clique.v assumes of the copy naming: [cp_fresh] and [cp_inj] *)
Theorem copies_fresh vs u v : In u vs -> In v vs -> copy_prefix vs ++ u <> v.
Proof.
  intros Hu Hv H. pose proof (copy_prefix_fresh vs v Hv) as Hf.
  assert (starts_with (copy_prefix vs) v = true) by (apply starts_with_spec; exists u; auto). congruence.
Qed.
Theorem copies_injective vs u v : copy_prefix vs ++ u = copy_prefix vs ++ v -> u = v.
Proof. apply app_inv_head. Qed.
Print Assumptions copies_fresh.
