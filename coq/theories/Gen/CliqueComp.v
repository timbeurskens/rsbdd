(** C16: the complement edge list built by the two nested loops of max_clique_gen (main.rs:64-79) has, in either mode,
    the two properties [comp_sound] and [comp_complete] that Clique.v assumes of it.  The third hypothesis there, [adj_sym],
    holds too ([adj_undir_sym], [adj_dir_sym]), but no proof in Clique.v needs it. *)
From Coq Require Import List Bool PeanoNat.
Import ListNotations.
From Rsbdd Require Import Gen.Colors.

Section Comp.
  Variable vs : list nat.
  Variable E : list edge.
  Definition has (a b : nat) : bool := mem_edge (a, b) E.
  Definition allpairs : list edge := flat_map (fun v1 => map (pair v1) vs) vs.
  Lemma in_allpairs a b : In (a, b) allpairs <-> In a vs /\ In b vs.
  Proof.
    unfold allpairs. rewrite in_flat_map. split.
    - intros (v1 & H1 & H). apply in_map_iff in H. destruct H as (v2 & Heq & H2). inversion Heq; subst. auto.
    - intros [Ha Hb]. exists a. split; auto. apply in_map. exact Hb.
  Qed.

  (** both modes keep the pairs of distinct vertices that some test [adj] rejects *)
  Definition nonadj (adj : nat -> nat -> bool) (p : edge) : bool := negb (Nat.eqb (fst p) (snd p)) && negb (adj (fst p) (snd p)).
  Lemma in_nonadj adj a b : In (a, b) (filter (nonadj adj) allpairs) <-> In a vs /\ In b vs /\ a <> b /\ adj a b = false.
  Proof.
    unfold nonadj. rewrite filter_In, in_allpairs, andb_true_iff, !negb_true_iff, Nat.eqb_neq. cbn [fst snd]. tauto.
  Qed.

  (** without -u: a pair is in the complement unless the edge in that direction is present *)
  Definition comp_dir : list edge :=
    filter (fun p => negb (Nat.eqb (fst p) (snd p)) && negb (has (fst p) (snd p))) allpairs.
  (** in directed mode adjacent means both arcs present: "-(a & b)" is printed as soon as one of them is missing *)
  Definition adj_dir (a b : nat) : bool := has a b && has b a.

  Theorem comp_dir_sound a b : In (a, b) comp_dir -> In a vs /\ In b vs /\ a <> b /\ adj_dir a b = false.
  Proof.
    intros H. apply (in_nonadj has) in H. destruct H as (Ha & Hb & Hne & H). unfold adj_dir. rewrite H. auto.
  Qed.
  Theorem comp_dir_complete a b : In a vs -> In b vs -> a <> b -> adj_dir a b = false ->
    In (a, b) comp_dir \/ In (b, a) comp_dir.
  Proof.
    intros Ha Hb Hne H. apply andb_false_iff in H. destruct H; [left|right]; apply (in_nonadj has); auto.
  Qed.

  (** with -u: a pair is pushed unless an edge in either direction is present or the reverse pair
      is already in the complement *)
  Fixpoint comp_acc (acc ps : list edge) : list edge :=
    match ps with
    | [] => acc
    | (a, b) :: r =>
        if negb (Nat.eqb a b) && negb (has a b || has b a || mem_edge (b, a) acc)
        then comp_acc (acc ++ [(a, b)]) r else comp_acc acc r
    end.
  Definition comp_undir : list edge := comp_acc [] allpairs.
  Definition adj_undir (a b : nat) : bool := has a b || has b a.

  (** the idea of the file: the -u loop is [read_acc] (Colors.v) run on the rejected pairs, so [C18_convert_undirected]
      gives both properties *)
  Lemma comp_acc_read : forall ps acc, comp_acc acc ps = read_acc true acc (filter (nonadj adj_undir) ps).
  Proof.
    induction ps as [|[a b] r IH]; intros acc; cbn [comp_acc filter]; [reflexivity|].
    unfold nonadj at 1, adj_undir at 1. cbn [fst snd].
    destruct (negb (Nat.eqb a b)), (has a b || has b a); cbn [negb andb orb read_acc]; rewrite ?IH; auto.
    destruct (mem_edge (b, a) acc); reflexivity.
  Qed.

  Theorem comp_undir_sound a b : In (a, b) comp_undir -> In a vs /\ In b vs /\ a <> b /\ adj_undir a b = false.
  Proof.
    unfold comp_undir. rewrite comp_acc_read. intros H. apply (in_nonadj adj_undir), C18_convert_undirected, H.
  Qed.
  Theorem comp_undir_complete a b : In a vs -> In b vs -> a <> b -> adj_undir a b = false ->
    In (a, b) comp_undir \/ In (b, a) comp_undir.
  Proof.
    intros Ha Hb Hne Hadj. unfold comp_undir. rewrite comp_acc_read. apply C18_convert_undirected, (in_nonadj adj_undir). auto.
  Qed.
  Lemma adj_undir_sym a b : adj_undir a b = adj_undir b a. Proof. unfold adj_undir. apply orb_comm. Qed.
  Lemma adj_dir_sym a b : adj_dir a b = adj_dir b a. Proof. unfold adj_dir. apply andb_comm. Qed.
End Comp.
Print Assumptions comp_undir_complete.
