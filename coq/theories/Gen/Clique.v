(** C16: max_clique_gen.  Vertices are ids; [vs] is the (arbitrary) iteration order of the vertex
    set, [comp] the complement edge list the two nested loops build, [cp] the copy naming. *)
From Coq Require Import List Bool PeanoNat ZArith.
Import ListNotations.
From Rsbdd Require Import Core.Bdd Core.Quant Lang.Ast Lang.Den Lang.FSem.

Section Clique.
  Variable vs : list nat.
  Variable adj : nat -> nat -> bool.
  Variable comp : list (nat * nat).
  Hypothesis comp_sound : forall a b, In (a, b) comp -> In a vs /\ In b vs /\ a <> b /\ adj a b = false.
  Hypothesis comp_complete : forall a b, In a vs -> In b vs -> a <> b -> adj a b = false -> In (a, b) comp \/ In (b, a) comp.
  Hypothesis adj_sym : forall a b, adj a b = adj b a.

  Definition nonedge (m : nat -> nat) (ab : nat * nat) : form := FNot (FBin BAnd (FVar (m (fst ab))) (FVar (m (snd ab)))).
  Definition constraints (m : nat -> nat) : list form := map (nonedge m) comp.

  Definition clique (s : asg) : Prop :=
    forall a b, In a vs -> In b vs -> a <> b -> s a = true -> s b = true -> adj a b = true.

  Lemma constraints_sem m s : forallb (fun c => fsem c s) (constraints m) = true <-> clique (fun v => s (m v)).
  Proof.
    unfold constraints. rewrite forallb_forall. split.
    - intros H a b Ha Hb Hne Sa Sb. destruct (adj a b) eqn:E; auto. exfalso.
      destruct (comp_complete a b Ha Hb Hne E) as [Hin|Hin];
        specialize (H _ (in_map (nonedge m) _ _ Hin)); cbn in H; rewrite Sa, Sb in H; discriminate.
    - intros H c Hc. apply in_map_iff in Hc. destruct Hc as ([a b] & <- & Hin). cbn.
      destruct (comp_sound a b Hin) as (Ha & Hb & Hne & E).
      destruct (s (m a)) eqn:Sa, (s (m b)) eqn:Sb; auto. rewrite (H a b Ha Hb Hne Sa Sb) in E. discriminate.
  Qed.

  (** --all: the constraints, then [true]; when there are no constraints the generator prints "true &" in their place
      (main.rs:112-113), hence [[FTrue]] for the empty list, here and in [form_max] *)
  Definition form_all : form := conj_chain (match constraints (fun v => v) with [] => [FTrue] | cs => cs end) FTrue.

  Lemma constraints_or_true_sem s :
    forallb (fun c => fsem c s) (match constraints (fun v => v) with [] => [FTrue] | cs => cs end) = true <-> clique s.
  Proof. rewrite <- (constraints_sem (fun v => v) s). destruct (constraints (fun v => v)); cbn; tauto. Qed.

  Theorem C16_all s : fsem form_all s = true <-> clique s.
  Proof. unfold form_all. rewrite fsem_conj_chain. cbn [fsem]. rewrite andb_true_r. apply constraints_or_true_sem. Qed.

  Variable cp : nat -> nat.
  Hypothesis cp_inj : forall a b, In a vs -> In b vs -> cp a = cp b -> a = b.
  Hypothesis cp_fresh : forall a b, In a vs -> In b vs -> cp a <> b.

  (** inside the quantifier the constraints on the copies are joined by " &\n" with no "&" after the last, and are
      "  true" when there are none (main.rs:141-149) *)
  Fixpoint conj_nolast (cs : list form) : form :=
    match cs with [] => FTrue | [c] => c | c :: r => FBin BAnd c (conj_nolast r) end.
  Lemma fsem_conj_nolast cs s : fsem (conj_nolast cs) s = forallb (fun c => fsem c s) cs.
  Proof.
    induction cs as [|c r IH]; cbn [conj_nolast forallb]; auto.
    destruct r as [|c' r']; [cbn; now rewrite andb_true_r|]. cbn [fsem binop_sem]. rewrite IH. reflexivity.
  Qed.

  (** maximality: for all copies, if the copies form a clique then it is no larger *)
  Definition body : form :=
    FBin BImplies (conj_nolast (constraints cp)) (FCountV AtLeast (map FVar vs) (map FVar (map cp vs))).
  Definition form_max : form :=
    conj_chain (match constraints (fun v => v) with [] => [FTrue] | cs => cs end) (FQuant QForall (map cp vs) body).

  Definition cnt (s : asg) : Z := count_den (map (fun v => fun s => s v) vs) s.
  Lemma count_vars l s : count_den (map fsem (map FVar l)) s = count_den (map (fun v => fun s => s v) l) s.
  Proof. rewrite map_map. reflexivity. Qed.
  Lemma count_agree l s s' : (forall v, In v l -> s v = s' v) ->
    count_den (map (fun v => fun s => s v) l) s = count_den (map (fun v => fun s => s v) l) s'.
  Proof.
    induction l as [|v l IH]; intros H; cbn [map count_den]; auto.
    rewrite (H v (or_introl eq_refl)), IH; auto. intros w Hw. apply H. right. exact Hw.
  Qed.
  Lemma count_cp l s : count_den (map (fun v => fun s => s v) (map cp l)) s =
                       count_den (map (fun v => fun s => s v) l) (fun v => s (cp v)).
  Proof. induction l as [|v l IH]; cbn [map count_den]; auto. rewrite IH. reflexivity. Qed.

  Lemma body_sem s : fsem body s = true <->
    (clique (fun v => s (cp v)) -> (cnt (fun v => s (cp v)) <= cnt s)%Z).
  Proof.
    unfold body. cbn [fsem binop_sem cop_sem]. rewrite fsem_conj_nolast, !count_vars, count_cp. fold (cnt s) (cnt (fun v => s (cp v))).
    destruct (forallb (fun c => fsem c s) (constraints cp)) eqn:E; cbn [implb].
    - apply constraints_sem in E. rewrite Z.leb_le. tauto.
    - split; auto. intros _ Hc. apply constraints_sem in Hc. congruence.
  Qed.

  Lemma body_respects : respects (fsem body).
  Proof.
    intros s s' E. apply eq_true_iff_eq. rewrite !body_sem. unfold clique, cnt.
    rewrite (count_agree vs s s'), (count_agree vs (fun v => s (cp v)) (fun v => s' (cp v))) by auto.
    setoid_rewrite E. reflexivity.
  Qed.

  (** the assignment that gives the copies the values of [t] and is [s] elsewhere *)
  Definition copy_vals (t s : asg) : asg :=
    fun y => match find (fun v => Nat.eqb (cp v) y) vs with Some v => t v | None => s y end.
  Lemma copy_vals_cp t s a : In a vs -> copy_vals t s (cp a) = t a.
  Proof.
    intros Ha. unfold copy_vals. destruct (find _ vs) as [v|] eqn:E.
    - apply find_some in E. destruct E as [Hv E]. apply Nat.eqb_eq in E. rewrite (cp_inj v a Hv Ha E). reflexivity.
    - apply find_none with (x := a) in E; auto. rewrite Nat.eqb_refl in E. discriminate.
  Qed.
  Lemma copy_vals_other t s : agree_outside (map cp vs) s (copy_vals t s).
  Proof.
    intros y Hy. unfold copy_vals. destruct (find _ vs) as [v|] eqn:E; auto.
    apply find_some in E. destruct E as [Hv E]. apply Nat.eqb_eq in E. elim Hy. rewrite <- E. apply in_map, Hv.
  Qed.
  Lemma cnt_agree_outside s s' : agree_outside (map cp vs) s s' -> cnt s' = cnt s.
  Proof.
    intros H. apply count_agree. intros v Hv. symmetry. apply H. intros Hin.
    apply in_map_iff in Hin. destruct Hin as (a & E & Ha). exact (cp_fresh a v Ha Hv E).
  Qed.

  Theorem C16_max s : fsem form_max s = true <->
    clique s /\ forall t, clique t -> (cnt t <= cnt s)%Z.
  Proof.
    unfold form_max. rewrite fsem_conj_chain, andb_true_iff, constraints_or_true_sem. cbn [fsem quant_sem].
    rewrite (fold_all1_spec _ body_respects). setoid_rewrite body_sem.
    split; intros [Hcl Hmax]; (split; [exact Hcl|]).
    - intros t Ht. pose proof (copy_vals_other t s) as Hag.
      rewrite <- (cnt_agree_outside _ _ Hag), <- (count_agree vs _ t (copy_vals_cp t s) : cnt _ = cnt t). apply Hmax; [exact Hag|].
      intros a b Ha Hb Hne. rewrite !copy_vals_cp by assumption. apply Ht; assumption.
    - intros s' Hag Hcl'. rewrite (cnt_agree_outside _ _ Hag). apply Hmax, Hcl'.
  Qed.
End Clique.
Print Assumptions C16_max.
