(** C18 (--convert and --colors): read_graph and augment_colors of random_graph_gen. *)
From Coq Require Import List Bool PeanoNat.
Import ListNotations.

Definition edge := (nat * nat)%type.
Definition edge_eqb (x y : edge) : bool := Nat.eqb (fst x) (fst y) && Nat.eqb (snd x) (snd y).
Lemma edge_eqb_spec x y : reflect (x = y) (edge_eqb x y).
Proof.
  destruct x as [a b], y as [c d]. unfold edge_eqb. cbn [fst snd].
  destruct (Nat.eqb_spec a c), (Nat.eqb_spec b d); cbn; constructor; congruence.
Qed.
Definition mem_edge (e : edge) (l : list edge) : bool := existsb (edge_eqb e) l.
Lemma mem_edge_In e l : mem_edge e l = true <-> In e l.
Proof.
  unfold mem_edge. rewrite existsb_exists. split.
  - intros (y & Hy & E). destruct (edge_eqb_spec e y); [subst; auto|discriminate].
  - intros H. exists e. split; auto. destruct (edge_eqb_spec e e); [reflexivity|contradiction].
Qed.

(** [read_graph] of random_graph_gen: under -u an edge is skipped when its reverse was kept before *)
Fixpoint read_acc (u : bool) (acc l : list edge) : list edge :=
  match l with
  | [] => acc
  | (a, b) :: r => if u && mem_edge (b, a) acc then read_acc u acc r else read_acc u (acc ++ [(a, b)]) r
  end.
Definition read_graph (u : bool) (l : list edge) : list edge := read_acc u [] l.

Lemma read_acc_directed : forall l acc, read_acc false acc l = acc ++ l.
Proof. induction l as [|[a b] r IH]; intros acc; cbn [read_acc andb]; [now rewrite app_nil_r|]. rewrite IH, <- app_assoc. reflexivity. Qed.
Theorem C18_convert_directed l : read_graph false l = l.
Proof. apply read_acc_directed. Qed.

Lemma read_acc_keeps u e : forall l acc, In e acc -> In e (read_acc u acc l).
Proof.
  induction l as [|[a b] r IH]; intros acc H; cbn [read_acc]; auto.
  destruct (u && mem_edge (b, a) acc); apply IH; auto. apply in_or_app. auto.
Qed.
Lemma read_acc_sub u e : forall l acc, In e (read_acc u acc l) -> In e acc \/ In e l.
Proof.
  induction l as [|[a b] r IH]; intros acc H; cbn [read_acc] in H; auto.
  destruct (u && mem_edge (b, a) acc); apply IH in H; [|rewrite in_app_iff in H]; cbn [In] in *; tauto.
Qed.
Lemma read_acc_covers u a b : forall l acc, In (a, b) l -> In (a, b) (read_acc u acc l) \/ In (b, a) (read_acc u acc l).
Proof.
  induction l as [|[x y] r IH]; intros acc H; [destruct H|]. cbn [read_acc].
  destruct H as [H|H]; [|destruct (u && mem_edge (y, x) acc); apply IH, H]. inversion H; subst x y.
  destruct (u && mem_edge (b, a) acc) eqn:E.
  - right. apply read_acc_keeps, mem_edge_In. apply andb_prop in E. apply E.
  - left. apply read_acc_keeps, in_or_app. right. left. reflexivity.
Qed.

Definition one_way (acc : list edge) : Prop := forall a b, a <> b -> In (a, b) acc -> ~ In (b, a) acc.
Lemma read_acc_one_way : forall l acc, one_way acc -> one_way (read_acc true acc l).
Proof.
  induction l as [|[x y] r IH]; intros acc H; cbn [read_acc andb]; auto.
  destruct (mem_edge (y, x) acc) eqn:E; apply IH; auto.
  (* (x, y) is pushed, and (y, x) is not in acc *)
  intros a b Hne H1 H2. apply in_app_or in H1. apply in_app_or in H2.
  destruct H1 as [H1|[H1|[]]], H2 as [H2|[H2|[]]].
  - exact (H a b Hne H1 H2).
  - inversion H2; subst. apply mem_edge_In in H1. congruence.
  - inversion H1; subst. apply mem_edge_In in H2. congruence.
  - inversion H1; inversion H2; subst. contradiction.
Qed.

Theorem C18_convert_undirected l :
  (forall e, In e (read_graph true l) -> In e l) /\
  (forall a b, In (a, b) l -> In (a, b) (read_graph true l) \/ In (b, a) (read_graph true l)) /\
  (forall a b, a <> b -> In (a, b) (read_graph true l) -> ~ In (b, a) (read_graph true l)).
Proof.
  unfold read_graph. split; [|split].
  - intros e He. destruct (read_acc_sub _ _ _ _ He) as [[]|H]. exact H.
  - intros a b. apply read_acc_covers.
  - apply read_acc_one_way. intros a b _ [].
Qed.

Section Colors.
  Variable V : list nat.                         (* the vertices to colour *)
  Variable es : list edge.
  Variable k : nat.
  Variable order : list (nat * nat).             (* the (vertex, colour) pairs in hash-map order *)
  Hypothesis order_spec : forall v c, In (v, c) order <-> In v V /\ c < k.
  Hypothesis order_nd : NoDup order.

  Definition adj0 (a b : nat) : bool := mem_edge (a, b) es || mem_edge (b, a) es.
  (** the double loop of augment_colors: [new_edge] is its test (different vertices, and different colours or not
      connected), [pairs] the iteration [for (i, v1) in vertices { for v2 in vertices[i+1..] }], [aug] the [new_edges] pushed *)
  Definition new_edge (x y : nat * nat) : bool :=
    negb (Nat.eqb (fst x) (fst y)) && (negb (Nat.eqb (snd x) (snd y)) || negb (adj0 (fst x) (fst y))).
  Fixpoint pairs {A} (l : list A) : list (A * A) := match l with [] => [] | x :: r => map (pair x) r ++ pairs r end.
  Definition aug : list ((nat * nat) * (nat * nat)) := filter (fun p => new_edge (fst p) (snd p)) (pairs order).
  Definition oadj (x y : nat * nat) : Prop := In (x, y) aug \/ In (y, x) aug.

  Lemma adj0_sym a b : adj0 a b = adj0 b a.
  Proof. unfold adj0. apply orb_comm. Qed.
  Lemma new_edge_sym x y : new_edge x y = new_edge y x.
  Proof. unfold new_edge. rewrite (Nat.eqb_sym (fst x)), (Nat.eqb_sym (snd x)), adj0_sym. reflexivity. Qed.

  Lemma new_edge_true a ca b cb : new_edge (a, ca) (b, cb) = true <-> a <> b /\ (ca <> cb \/ adj0 a b = false).
  Proof.
    unfold new_edge. cbn [fst snd]. rewrite andb_true_iff, orb_true_iff, !negb_true_iff, !Nat.eqb_neq. reflexivity.
  Qed.

  Lemma in_pairs {A} (l : list A) x y : In (x, y) (pairs l) -> In x l /\ In y l.
  Proof.
    induction l as [|a r IH]; cbn [pairs]; [intros []|]. intros H. apply in_app_or in H. destruct H as [H|H].
    - apply in_map_iff in H. destruct H as (z & E & Hz). inversion E; subst. split; [left|right]; auto.
    - destruct (IH H). split; right; auto.
  Qed.
  Lemma pairs_total {A} (l : list A) x y : In x l -> In y l -> x <> y -> In (x, y) (pairs l) \/ In (y, x) (pairs l).
  Proof.
    induction l as [|a r IH]; intros Hx Hy Hne; [destruct Hx|]. cbn [pairs].
    destruct Hx as [->|Hx], Hy as [->|Hy].
    - contradiction.
    - left. apply in_or_app. left. apply in_map. exact Hy.
    - right. apply in_or_app. left. apply in_map. exact Hx.
    - destruct (IH Hx Hy Hne); [left|right]; apply in_or_app; right; auto.
  Qed.

  Lemma oadj_spec x y : In x order -> In y order -> x <> y -> (oadj x y <-> new_edge x y = true).
  Proof.
    intros Hx Hy Hne. unfold oadj, aug. rewrite !filter_In. cbn [fst snd]. split.
    - intros [[_ H]|[_ H]]; auto. rewrite new_edge_sym. exact H.
    - intros H. destruct (pairs_total order x y Hx Hy Hne); [left|right]; split; auto. rewrite new_edge_sym. exact H.
  Qed.

  (** what --colors is for: a clique of the augmented graph ([oadj] is its adjacency) with a pair for every vertex is a
      proper k-colouring of the input.  [order] enters only through [order_spec]: the hash-map order does not matter. *)
  Definition colourable : Prop :=
    exists col, (forall v, In v V -> col v < k) /\ forall a b, In a V -> In b V -> a <> b -> adj0 a b = true -> col a <> col b.
  Definition covering_clique : Prop :=
    exists C, (forall x, In x C -> In x order) /\ (forall x y, In x C -> In y C -> x <> y -> oadj x y) /\
              (forall v, In v V -> exists c, In (v, c) C).

  Theorem C18_colors : covering_clique <-> colourable.
  Proof.
    split.
    - intros (C & Hsub & Hcl & Hcov).
      (* the colour of v is that of the first pair of C with vertex v *)
      set (pick := fun v => find (fun x => Nat.eqb (fst x) v) C).
      exists (fun v => match pick v with Some x => snd x | None => 0 end).
      assert (Hpick : forall v, In v V -> exists c, pick v = Some (v, c) /\ In (v, c) C).
      { intros v Hv. destruct (Hcov v Hv) as (c & Hc). unfold pick. destruct (find _ C) as [[v' c']|] eqn:E.
        - apply find_some in E. destruct E as [Hin E]. apply Nat.eqb_eq in E. cbn in E. subst v'. exists c'. auto.
        - apply find_none with (x := (v, c)) in E; auto. cbn in E. rewrite Nat.eqb_refl in E. discriminate. }
      split.
      + intros v Hv. destruct (Hpick v Hv) as (c & -> & Hc). apply (order_spec v c), Hsub, Hc.
      + intros a b Ha Hb Hne Hadj. destruct (Hpick a Ha) as (ca & -> & Hca). destruct (Hpick b Hb) as (cb & -> & Hcb).
        cbn [snd]. intros <-. assert (Hxy : (a, ca) <> (b, ca)) by congruence.
        pose proof (Hcl _ _ Hca Hcb Hxy) as Ho. apply (oadj_spec _ _ (Hsub _ Hca) (Hsub _ Hcb) Hxy), new_edge_true in Ho.
        destruct Ho as [_ [H|H]]; congruence.
    - intros (col & Hrange & Hproper). exists (map (fun v => (v, col v)) V). split; [|split].
      + intros x Hx. apply in_map_iff in Hx. destruct Hx as (v & <- & Hv). apply order_spec. auto.
      + intros x y Hx Hy Hne. apply in_map_iff in Hx. apply in_map_iff in Hy.
        destruct Hx as (a & <- & Ha). destruct Hy as (b & <- & Hb).
        assert (Hab : a <> b) by congruence.
        apply oadj_spec; auto; try (apply order_spec; auto). apply new_edge_true. split; auto.
        destruct (adj0 a b) eqn:E; auto.
      + intros v Hv. exists (col v). apply in_map_iff. exists v. auto.
  Qed.
End Colors.
Print Assumptions C18_convert_undirected.
Print Assumptions C18_colors.
