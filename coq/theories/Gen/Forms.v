(** The formulas the generators print (right-nested "&" chains ending in "true") mean their
    constraint sets (C15, C17). *)
From Coq Require Import List Bool ZArith Lia.
Import ListNotations.
From Rsbdd Require Import Core.Bdd Lang.Ast Lang.Den Lang.FSem.
From Rsbdd Require Gen.Queens Gen.Sudoku.

Lemma count_vars_cnt l s : count_den (map fsem (map FVar l)) s = Z.of_nat (Queens.cnt s l).
Proof.
  unfold Queens.cnt. induction l as [|v l IH]; cbn [map count_den fsem filter]; auto.
  rewrite IH. destruct (s v); cbn [length]; lia.
Qed.

Definition at_most1 (l : list nat) : form := FCountC AtMost (map FVar l) 1.
Definition exactly1 (l : list nat) : form := FCountC Exactly (map FVar l) 1.
Lemma at_most1_sem l s : fsem (at_most1 l) s = true <-> Queens.cnt s l <= 1.
Proof. unfold at_most1. cbn [fsem cop_sem]. rewrite count_vars_cnt. rewrite Z.leb_le. cbn. lia. Qed.
Lemma exactly1_sem l s : fsem (exactly1 l) s = true <-> Queens.cnt s l = 1.
Proof. unfold exactly1. cbn [fsem cop_sem]. rewrite count_vars_cnt. rewrite Z.eqb_eq. cbn. lia. Qed.

Lemma forallb_map_sem {A} (mk : A -> form) (P : A -> Prop) s (ls : list A) :
  (forall l, fsem (mk l) s = true <-> P l) -> (forallb (fun c => fsem c s) (map mk ls) = true <-> Forall P ls).
Proof.
  intros H. induction ls as [|l ls IH]; cbn [map forallb]; [split; constructor|].
  rewrite andb_true_iff, H, IH, Forall_cons_iff. reflexivity.
Qed.

(** n_queens_gen: the four diagonal families with "<= 1", rows and columns with "= 1", then "true" *)
Definition queens_form (n : nat) : form :=
  conj_chain (map at_most1 (Queens.d1a n ++ Queens.d1b n ++ Queens.d2a n ++ Queens.d2b n) ++
              map exactly1 (Queens.rows n ++ Queens.cols n)) FTrue.

Theorem C15_formula n s : 1 <= n -> (fsem (queens_form n) s = true <-> Queens.sol n s).
Proof.
  intros Hn. rewrite <- (Queens.C15 n s Hn). unfold queens_form, Queens.sat.
  rewrite fsem_conj_chain. cbn [fsem]. rewrite andb_true_r, forallb_app, andb_true_iff.
  rewrite (forallb_map_sem _ _ s _ (fun l => at_most1_sem l s)), (forallb_map_sem _ _ s _ (fun l => exactly1_sem l s)).
  reflexivity.
Qed.

(** sudoku_gen: hints as single variables, then the "= 1" families, then "true" *)
Definition sudoku_form (r : nat) (hints : list (nat * nat)) : form :=
  conj_chain (map (fun h => FVar (Sudoku.vid r (fst h) (snd h))) hints ++
              map exactly1 (Sudoku.cell_lists r ++ Sudoku.rowcol_lists r ++ Sudoku.box_lists r)) FTrue.

Theorem C17_formula r hints s :
  (forall c d, In (c, d) hints -> c < (r * r) * (r * r) /\ 1 <= d <= r * r) ->
  (fsem (sudoku_form r hints) s = true <-> exists g, Sudoku.grid_ok r hints g /\ Sudoku.encodes r s g).
Proof.
  intros Hh. rewrite <- (Sudoku.C17 r hints Hh s). unfold sudoku_form, Sudoku.sat.
  rewrite fsem_conj_chain. cbn [fsem]. rewrite andb_true_r, forallb_app, andb_true_iff.
  rewrite (forallb_map_sem _ _ s _ (fun l => exactly1_sem l s)).
  rewrite (forallb_map_sem (fun h => FVar (Sudoku.vid r (fst h) (snd h))) _ s _ (fun h => iff_refl _)).
  rewrite Forall_forall. split.
  - intros [H1 H2]. split; [exact H2|]. intros c d Hin. exact (H1 (c, d) Hin).
  - intros [H1 H2]. split; [|exact H1]. intros [c d] Hin. exact (H2 c d Hin).
Qed.
Print Assumptions C15_formula.
Print Assumptions C17_formula.
