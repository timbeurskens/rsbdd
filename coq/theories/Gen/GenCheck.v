(** Executable pieces for the generator suites: admissibility of a random_graph_gen output, the
    hint reader of sudoku_gen. *)
From Coq Require Import List Bool Lia PeanoNat Permutation NArith.
Import ListNotations.
From Rsbdd Require Import Gen.Graph Gen.Colors.

Fixpoint nodupb (l : list edge) : bool :=
  match l with [] => true | e :: r => negb (mem_edge e r) && nodupb r end.

Definition valid_output (V E : nat) (u : bool) (out : list edge) : bool :=
  Nat.eqb (length out) E && nodupb out && forallb (fun e => mem_edge e (candidates V u)) out.
Definition feasible (V E : nat) (u : bool) : bool := Nat.leb E (length (candidates V u)).

Lemma nodupb_NoDup l : nodupb l = true <-> NoDup l.
Proof.
  induction l as [|e r IH]; cbn [nodupb]; [split; [constructor|auto]|].
  rewrite andb_true_iff, negb_true_iff, IH, NoDup_cons_iff, <- mem_edge_In, not_true_iff_false. reflexivity.
Qed.

Lemma valid_output_spec V E u out : valid_output V E u out = true <-> admissible V E u out.
Proof.
  unfold valid_output, admissible, incl. rewrite !andb_true_iff, Nat.eqb_eq, nodupb_NoDup, forallb_forall.
  setoid_rewrite mem_edge_In. tauto.
Qed.

Theorem valid_output_sound V E u out : valid_output V E u out = true ->
  length out = E /\ NoDup out /\ (forall a b, In (a, b) out -> a <> b /\ a < V /\ b < V) /\
  (u = true -> forall a b, In (a, b) out -> ~ In (b, a) out).
Proof. intros H. apply admissible_props, valid_output_spec, H. Qed.

(** conversely every output the generator model can produce is admissible, whatever the shuffle *)
Theorem gen_graph_valid (shuffle : list edge -> list edge) : (forall l, Permutation (shuffle l) l) ->
  forall V E u out, gen_graph shuffle V E u = Some out -> valid_output V E u out = true.
Proof.
  intros Hp V E u out Hg. apply valid_output_spec. pose proof (gen_admissible shuffle Hp V E u) as H.
  rewrite Hg in H. exact H.
Qed.

(** sudoku_gen's hint reader (sudoku_gen/src/main.rs:51-76): whitespace is stripped, then for every
    cell i below the number of cells the i-th remaining character gives a hint when it is an ASCII digit.
    [ws] classifies white space and is a parameter here.  [ascii_ws] (the ASCII part of Unicode White_Space) and [feasible]
    above have no lemma: they exist for the extracted driver (Extract.v, ocaml/suites.ml), which builds [ws] from [ascii_ws]. *)
Local Open Scope N_scope.
Definition ascii_ws (c : N) : bool := (c =? 32) || ((9 <=? c) && (c <=? 13)).
Fixpoint hints_from (i : nat) (cells : nat) (l : list N) : list (nat * nat) :=
  match cells, l with
  | O, _ => []
  | _, [] => []
  | S n', c :: r =>
      (if (48 <=? c) && (c <=? 57) then [(i, N.to_nat (c - 48))] else []) ++ hints_from (S i) n' r
  end.
Definition hints_of_text (ws : N -> bool) (cells : nat) (txt : list N) : list (nat * nat) :=
  hints_from 0 cells (filter (fun c => negb (ws c)) txt).

Lemma hints_from_range : forall cells i l c d, In (c, d) (hints_from i cells l) -> (i <= c < i + cells)%nat /\ (d <= 9)%nat.
Proof.
  induction cells as [|n IH]; intros i l c d H; cbn [hints_from] in H; [destruct H|].
  destruct l as [|x r]; [destruct H|]. apply in_app_or in H. destruct H as [H|H].
  - destruct ((48 <=? x) && (x <=? 57)) eqn:E; [|destruct H]. destruct H as [H|[]]. inversion H; subst.
    apply andb_true_iff in E. destruct E as [E1 E2]. apply N.leb_le in E1, E2. split; lia.
  - destruct (IH (S i) r c d H). split; lia.
Qed.
