(** C08 (completeness): every sentence of the grammar is accepted, with its tree, for every
    sufficient fuel; hence the grammar is unambiguous. *)
From Coq Require Import List Lia.
Import ListNotations.
From Rsbdd Require Import Lang.Ast Syntax.Token Syntax.Parser Syntax.Grammar Syntax.ParserSound.

Lemma p_vars_complete : forall s vs, Gvars s vs -> forall r, p_vars (s ++ THash :: r) = Ok vs (THash :: r).
Proof.
  induction 1 as [|v|v s vs Hg IH]; intros r; cbn [app p_vars]; auto.
  rewrite IH. reflexivity.
Qed.

Lemma G_starts_ok :
  (forall s f, Gsub s f -> starts_ok s) /\ (forall s f, Gclosed s f -> starts_ok s) /\
  (forall s f, Gopen s f -> starts_ok s) /\ (forall s fs, Gitems s fs -> True).
Proof.
  apply G_mutind; intros; cbn [starts_ok app]; auto.
  destruct s1; cbn in *; [contradiction|auto].
Qed.

Lemma p_items_sub s f : Gsub s f -> forall n rest, p_items (S n) (s ++ rest) = items_body n (s ++ rest).
Proof.
  intros Hg n rest. apply p_items_eq. pose proof (proj1 G_starts_ok s f Hg) as Hst. destruct s; [contradiction|exact Hst].
Qed.

Lemma sub_of_simple n ts f rest : nobin rest -> p_simple n ts = Ok f rest -> p_sub (S n) ts = Ok f rest.
Proof. intros Hno E. rewrite p_sub_S, E. destruct rest as [|t r]; auto. cbn in Hno. rewrite Hno. reflexivity. Qed.

(** the fuel bounds: [p_simple] consumes a token before it calls anything, but between two consumed tokens the
    parser may descend [p_items] -> [p_sub] -> [p_simple] (after [TOpenSquare] or [TComma]), one unit of fuel each.
    So three units per token do for [p_simple], one more for [p_sub], two more for [p_items]; [parse] starts [p_sub]
    on the whole list with [3 * length ts + 3]. *)
Definition sub_complete (s : list token) (f : form) : Prop :=
  forall rest n, nobin rest -> 3 * length s + 1 <= n -> p_sub n (s ++ rest) = Ok f rest.
(** the [Gopen] clause of [complete_mut]; a [Gclosed] term needs no [nobin rest] *)
Definition simple_complete (s : list token) (f : form) : Prop :=
  forall rest n, nobin rest -> 3 * length s <= n -> p_simple n (s ++ rest) = Ok f rest.
Lemma quant_complete q sv vs s f : Gvars sv vs -> sub_complete s f ->
  simple_complete (tok_of_quant q :: sv ++ THash :: s) (FQuant q vs f).
Proof.
  intros Hv IH rest n Hno Hn. cbn [length] in Hn. rewrite app_length in Hn. cbn [length] in Hn.
  destruct n as [|n]; [lia|]. cbn [app]. rewrite <- app_assoc. cbn [app].
  rewrite p_simple_quant, (p_vars_complete _ _ Hv), IH; auto. lia.
Qed.
Lemma fix_complete b v s f : sub_complete s f -> simple_complete (tok_of_fix b :: TVar v :: THash :: s) (FFix v b f).
Proof.
  intros IH rest n Hno Hn. cbn [length] in Hn. destruct n as [|n]; [lia|]. cbn [app]. rewrite p_simple_fix, IH; auto. lia.
Qed.

Lemma complete_mut :
  (forall s f, Gsub s f -> forall rest n, nobin rest -> 3 * length s + 1 <= n -> p_sub n (s ++ rest) = Ok f rest) /\
  (forall s f, Gclosed s f -> forall rest n, 3 * length s <= n -> p_simple n (s ++ rest) = Ok f rest) /\
  (forall s f, Gopen s f -> forall rest n, nobin rest -> 3 * length s <= n -> p_simple n (s ++ rest) = Ok f rest) /\
  (forall s fs, Gitems s fs -> forall rest n, 3 * length s + 2 <= n -> p_items n (s ++ rest) = Ok fs rest).
Proof.
  apply G_mutind.
  - intros s f _ IH rest n Hno Hn. destruct n as [|n]; [lia|]. apply sub_of_simple, IH; auto. lia.
  - intros s1 f1 t op s2 f2 _ IH1 Hop _ IH2 rest n Hno Hn. rewrite app_length in Hn. cbn [length] in Hn.
    destruct n as [|n]; [lia|]. rewrite <- app_assoc. cbn [app].
    rewrite p_sub_S, IH1 by lia. rewrite Hop. rewrite IH2; auto. lia.
  - intros s f _ IH rest n Hno Hn. destruct n as [|n]; [lia|]. apply sub_of_simple, IH; auto. lia.
  - intros s f _ IH rest n Hn. cbn [length] in Hn. rewrite app_length in Hn. cbn [length] in Hn.
    destruct n as [|n]; [lia|]. cbn [app]. rewrite <- app_assoc. cbn [app].
    rewrite p_simple_paren, IH; [reflexivity|cbn; auto|lia].
  - intros s l t op c _ IH Hop rest n Hn. cbn [length] in Hn. rewrite app_length in Hn. cbn [length] in Hn.
    destruct n as [|n]; [lia|]. cbn [app]. rewrite <- app_assoc. cbn [app].
    rewrite p_simple_count, IH by lia. rewrite Hop. reflexivity.
  - intros s1 l t op s2 r _ IH1 Hop _ IH2 rest n Hn. cbn [length] in Hn. rewrite app_length in Hn. cbn [length] in Hn.
    destruct n as [|n]; [lia|]. cbn [app]. rewrite <- app_assoc. cbn [app].
    rewrite p_simple_count, IH1 by lia. rewrite Hop. rewrite IH2 by lia. reflexivity.
  - intros rest n Hn. destruct n as [|n]; [cbn in Hn; lia|]. reflexivity.
  - intros rest n Hn. destruct n as [|n]; [cbn in Hn; lia|]. reflexivity.
  - intros rest n Hn. destruct n as [|n]; [cbn in Hn; lia|]. reflexivity.
  - intros v rest n Hn. destruct n as [|n]; [cbn in Hn; lia|]. reflexivity.
  - intros s f _ IH rest n Hn. cbn [length] in Hn. destruct n as [|n]; [lia|]. cbn [app].
    rewrite p_simple_not, IH by lia. reflexivity.
  - intros sv vs s f Hv _ IH. exact (quant_complete QExists sv vs s f Hv IH).
  - intros sv vs s f Hv _ IH. exact (quant_complete QForall sv vs s f Hv IH).
  - intros v s f _ IH. exact (fix_complete true v s f IH).
  - intros v s f _ IH. exact (fix_complete false v s f IH).
  - intros s1 c s2 t s3 e _ IH1 _ IH2 _ IH3 rest n Hno Hn. cbn [length] in Hn. rewrite !app_length in Hn. cbn [length] in Hn.
    rewrite app_length in Hn. cbn [length] in Hn.
    destruct n as [|n]; [lia|]. cbn [app]. rewrite <- !app_assoc. cbn [app]. rewrite <- !app_assoc. cbn [app].
    rewrite p_simple_if, IH1; [|cbn; auto|lia]. rewrite IH2; [|cbn; auto|lia]. rewrite IH3; auto. lia.
  - intros s f _ IH rest n Hno Hn. cbn [length] in Hn. destruct n as [|n]; [lia|]. cbn [app].
    rewrite p_simple_not, IH; auto. lia.
  - intros rest n Hn. destruct n as [|n]; [cbn in Hn; lia|]. reflexivity.
  - intros s f Hg IH rest n Hn. rewrite app_length in Hn. cbn [length] in Hn.
    destruct n as [|n]; [lia|]. rewrite <- app_assoc. cbn [app]. rewrite (p_items_sub s f Hg). unfold items_body.
    rewrite IH; [reflexivity|cbn; auto|lia].
  - intros s f s' fs Hg IH1 _ IH2 rest n Hn. rewrite app_length in Hn. cbn [length] in Hn.
    destruct n as [|n]; [lia|]. rewrite <- app_assoc. cbn [app]. rewrite (p_items_sub s f Hg). unfold items_body.
    rewrite IH1; [|cbn; auto|lia]. rewrite IH2 by lia. reflexivity.
Qed.

Theorem C08_complete ts f : G_formula ts f -> parse ts = Ok f [].
Proof.
  intros (s & -> & Hg). unfold parse, parse_f.
  rewrite (proj1 complete_mut s f Hg [TEof]); [reflexivity|cbn; auto|].
  rewrite app_length. cbn [length]. lia.
Qed.

Corollary C08_unique ts f1 f2 : G_formula ts f1 -> G_formula ts f2 -> f1 = f2.
Proof. intros H1 H2. apply C08_complete in H1, H2. congruence. Qed.

Theorem C08 ts f : eof_last ts -> (parse ts = Ok f [] <-> G_formula ts f).
Proof. intros He. split; [apply C08_sound_lexed; auto|apply C08_complete]. Qed.
Print Assumptions C08.
