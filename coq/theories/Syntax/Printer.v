(** An un-parser: every syntax tree without embedded diagrams is the parse of a
    token list, [parse (unparse f ++ [TEof]) = Ok f []], and no sentence of the grammar has another kind of tree:
    the parser is onto the Subtree-free syntax trees, with [unparse] as a right inverse. *)
From Coq Require Import List.
Import ListNotations.
From Rsbdd Require Import Lang.Ast Lang.AstFacts Lang.Free Syntax.Token Syntax.Grammar Syntax.Parser Syntax.ParserComplete.

Definition tok_of_binop (op : binop) : token :=
  match op with
  | BAnd => TAnd | BOr => TOr | BXor => TXor | BNor => TNor | BNand => TNand
  | BImplies => TImplies | BImpliesInv => TImpliesInv | BIff => TIff
  end.
Definition tok_of_cop (op : cop) : token :=
  match op with Exactly => TEq | AtMost => TImpliesInv | AtLeast => TGeq | LessThan => TLt | MoreThan => TGt end.
Lemma binop_of_tok op : binop_of (tok_of_binop op) = Some op. Proof. destruct op; reflexivity. Qed.
Lemma cop_of_tok op : cop_of (tok_of_cop op) = Some op. Proof. destruct op; reflexivity. Qed.

Fixpoint unparse_vars (vs : list nat) : list token :=
  match vs with
  | [] => []
  | [v] => [TVar v]
  | v :: r => TVar v :: TComma :: unparse_vars r
  end.
Lemma unparse_vars_ok vs : Gvars (unparse_vars vs) vs.
Proof.
  induction vs as [|v r IH]; [constructor|]. destruct r as [|w r']; [constructor|].
  change (unparse_vars (v :: w :: r')) with (TVar v :: TComma :: unparse_vars (w :: r')). constructor. exact IH.
Qed.

(** items of a counting list, up to and including the closing bracket *)
Definition unparse_items (un : form -> list token) : list form -> list token :=
  fix go (l : list form) : list token :=
    match l with
    | [] => [TCloseSquare]
    | [f] => un f ++ [TCloseSquare]
    | f :: r => un f ++ TComma :: go r
    end.

(** every [unparse f] is a [Gclosed] term ([unparse_closed]), so it may stand in any position: brackets go around
    whatever is not closed already (not around [FNot] or the counts) *)
Fixpoint unparse (f : form) : list token :=
  match f with
  | FFalse => [TFalse]
  | FTrue => [TTrue]
  | FRef => [TRefT]
  | FSub _ => [TRefT]                 (* no concrete syntax; excluded by [nofsub] *)
  | FVar v => [TVar v]
  | FNot g => TNot :: unparse g
  | FBin op a b => TOpenParen :: (unparse a ++ tok_of_binop op :: unparse b) ++ [TCloseParen]
  | FQuant QExists vs g => TOpenParen :: (TExists :: unparse_vars vs ++ THash :: unparse g) ++ [TCloseParen]
  | FQuant QForall vs g => TOpenParen :: (TForall :: unparse_vars vs ++ THash :: unparse g) ++ [TCloseParen]
  | FFix v true g => TOpenParen :: (TGFP :: TVar v :: THash :: unparse g) ++ [TCloseParen]
  | FFix v false g => TOpenParen :: (TLFP :: TVar v :: THash :: unparse g) ++ [TCloseParen]
  | FIte c t e => TOpenParen :: (TIf :: unparse c ++ TThen :: unparse t ++ TElse :: unparse e) ++ [TCloseParen]
  | FCountC op l n => TOpenSquare :: unparse_items unparse l ++ [tok_of_cop op; TNum n]
  | FCountV op l r => TOpenSquare :: unparse_items unparse l ++ tok_of_cop op :: TOpenSquare :: unparse_items unparse r
  end.

Lemma unparse_items_ok l :
  Forall (fun f => Gclosed (unparse f) f) l -> Gitems (unparse_items unparse l) l.
Proof.
  induction l as [|f r IH]; intros H; [constructor|].
  inversion H as [|? ? Hf Hr]; subst. destruct r as [|g r'].
  - cbn [unparse_items]. apply Gi_one. apply Gs_closed. exact Hf.
  - change (unparse_items unparse (f :: g :: r')) with (unparse f ++ TComma :: unparse_items unparse (g :: r')).
    apply Gi_cons; [apply Gs_closed; exact Hf | apply IH; exact Hr].
Qed.

Theorem unparse_closed : forall f, nofsub f -> Gclosed (unparse f) f.
Proof.
  induction f as [| |v|g IH|q vs g IH|op fs n IH|op l rr IHl IHr|y i g IH|c t e IHc IHt IHe|op l rr IHl IHr|b0|] using form_ind';
    cbn [nofsub]; intros Hn.
  - constructor.
  - constructor.
  - constructor.
  - cbn [unparse]. apply Gc_not. exact (IH Hn).
  - pose proof (Go_quant q _ _ _ _ (unparse_vars_ok vs) (Gs_closed _ _ (IH Hn))) as G. destruct q; apply Gc_paren, Gs_open, G.
  - apply nofsub_list in Hn. cbn [unparse]. apply Gc_countc; [|apply cop_of_tok].
    apply unparse_items_ok. rewrite Forall_forall in *. intros g Hg. exact (IH g Hg (Hn g Hg)).
  - destruct Hn as [Hl Hr]. apply nofsub_list in Hl. apply nofsub_list in Hr. cbn [unparse].
    apply Gc_countv; [|apply cop_of_tok|]; apply unparse_items_ok; rewrite Forall_forall in *; intros g Hg.
    + exact (IHl g Hg (Hl g Hg)).
    + exact (IHr g Hg (Hr g Hg)).
  - pose proof (Go_fix i y _ _ (Gs_closed _ _ (IH Hn))) as G. destruct i; apply Gc_paren, Gs_open, G.
  - destruct Hn as (Hc & Ht & He). cbn [unparse]. apply Gc_paren, Gs_open.
    apply Go_ite; apply Gs_closed; auto.
  - destruct Hn as [Hl Hr]. cbn [unparse]. apply Gc_paren.
    apply Gs_bin; [exact (IHl Hl) | apply binop_of_tok | apply Gs_closed; exact (IHr Hr)].
  - destruct Hn.
  - constructor.
Qed.

Theorem unparse_sentence f : nofsub f -> G_formula (unparse f ++ [TEof]) f.
Proof. intros Hn. exists (unparse f). split; [reflexivity|]. apply Gs_closed. apply unparse_closed. exact Hn. Qed.

Theorem parse_unparse f : nofsub f -> parse (unparse f ++ [TEof]) = Ok f [].
Proof. intros Hn. apply C08_complete. apply unparse_sentence. exact Hn. Qed.

Corollary parse_onto f : nofsub f -> exists ts, parse ts = Ok f [].
Proof. intros Hn. exists (unparse f ++ [TEof]). apply parse_unparse. exact Hn. Qed.

(** no sentence of the grammar has a tree with an embedded diagram (Subtree nodes arise only during
    fixed-point evaluation) *)
Lemma grammar_nofsub :
  (forall s f, Gsub s f -> nofsub f) /\ (forall s f, Gclosed s f -> nofsub f) /\
  (forall s f, Gopen s f -> nofsub f) /\ (forall s l, Gitems s l -> Forall nofsub l).
Proof.
  apply G_mutind; intros; cbn [nofsub]; auto.
  - apply nofsub_list. assumption.
  - split; apply nofsub_list; assumption.
Qed.
Theorem parse_nofsub ts f : G_formula ts f -> nofsub f.
Proof. intros (s & _ & H). exact (proj1 grammar_nofsub s f H). Qed.
