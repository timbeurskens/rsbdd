(** C08 (lexical half): the scanner's output is a maximal-munch tokenisation of the text (LexUnique.v: the only one). *)
From Coq Require Import List NArith Lia.
Import ListNotations.
From Rsbdd Require Import Syntax.Lexer Syntax.Tokenize Syntax.SrcTables.
Local Open Scope N_scope.

Section Spec.
  Variable uc : N -> ucls.
  Notation is_digit := (is_digit uc).
  Notation is_word := (is_word uc).

  (** SrcTables.v [sym_table] as a relation ([sym_string_assoc], [assoc_sym_string]); the table is the primary form *)
  Definition sym_string (s : sym) (w : list N) : Prop :=
    match s with
    | SIff => w = [60; 61; 62] | SImpliesInv => w = [60; 61] | SLt => w = [60]
    | SImplies => w = [61; 62] | SEq => w = [61] | SGeq => w = [62; 61] | SGt => w = [62]
    | SNot => w = [33] \/ w = [45] | SAnd => w = [38] \/ w = [42] | SOr => w = [124] \/ w = [43]
    | SXor => w = [94] | SHash => w = [35] | SOpenSquare => w = [91] | SCloseSquare => w = [93]
    | SComma => w = [44] | SOpenParen => w = [40] | SCloseParen => w = [41]
    end.
  Definition all_b (p : N -> bool) (w : list N) : Prop := Forall (fun c => p c = true) w.

  (** the groups symbol, countable, reference, identifier of the TOKENIZER regex (parser.rs:19).  [is_digit c = false] in
      [L_ident] is not in [[\w']+]: it stands for "countable comes before identifier in the alternation". *)
  Inductive lexeme : list N -> rtok -> Prop :=
  | L_sym s w : sym_string s w -> lexeme w (RSym s)
  | L_num w : w <> [] -> all_b is_digit w -> lexeme w (RNumber w)
  | L_ref w : w <> [] -> all_b is_word w -> lexeme (123 :: w ++ [125]) (RRef w)
  | L_ident c w : is_word c = true -> is_digit c = false -> all_b is_word w -> lexeme (c :: w) (RIdent (c :: w)).

  Definition prefix (p l : list N) : Prop := exists r, l = p ++ r.
  Definition maximal (w l : list N) : Prop :=
    forall w' t', prefix w' l -> lexeme w' t' -> (length w' <= length w)%nat.
  Definition comment (w : list N) : Prop :=
    exists body, w = 34 :: body ++ [34] /\ Forall (fun c => c <> 34) body.

  (** the tokenisation relation: leftmost, longest, comments and stray characters skipped *)
  Inductive Lexes : list N -> list rtok -> Prop :=
  | Lx_nil : Lexes [] []
  | Lx_tok w t r ts : lexeme w t -> maximal w (w ++ r) -> Lexes r ts -> Lexes (w ++ r) (t :: ts)
  | Lx_comment w r ts : comment w -> (forall w' t', prefix w' (w ++ r) -> ~ lexeme w' t') -> Lexes r ts -> Lexes (w ++ r) ts
  | Lx_skip c r ts : (forall w' t', prefix w' (c :: r) -> ~ lexeme w' t') ->
      (forall w', prefix w' (c :: r) -> ~ comment w') -> Lexes r ts -> Lexes (c :: r) ts.

  Definition stops (P : N -> Prop) (b : list N) : Prop := match b with c :: _ => ~ P c | [] => True end.

  Lemma span_spec p : forall l a b, span p l = (a, b) -> l = a ++ b /\ all_b p a /\ stops (fun c => p c = true) b.
  Proof.
    induction l as [|c r IH]; intros a b H; cbn [span] in H.
    - inversion H; subst. repeat split; constructor.
    - destruct (p c) eqn:E.
      + destruct (span p r) as [a' b'] eqn:Es. inversion H; subst.
        destruct (IH a' b eq_refl) as (H1 & H2 & H3). subst r. repeat split; auto. constructor; auto.
      + inversion H; subst. repeat split; [constructor|]. cbn. rewrite E. discriminate.
  Qed.

  Lemma span_length p l a b : span p l = (a, b) -> (length b <= length l)%nat.
  Proof. intros H. destruct (span_spec p l a b H) as (-> & _ & _). rewrite app_length. lia. Qed.

  Lemma span_head p c r a b : p c = true -> span p (c :: r) = (a, b) -> exists a0, a = c :: a0.
  Proof. cbn [span]. intros ->. destruct (span p r). intros H. inversion H. eauto. Qed.

  (** a run: a stretch [a] of [P]-characters before a [b] with [stops P b] *)
  Lemma run_prefix (P : N -> Prop) : forall a b w, Forall P w -> stops P b -> prefix w (a ++ b) -> (length w <= length a)%nat.
  Proof.
    induction a as [|x a IH]; intros b w Hw Hb (r & Hr); cbn [app] in Hr; (destruct w as [|y w]; [cbn; lia|]).
    - subst b. inversion Hw; subst. contradiction.
    - inversion Hr; subst. inversion Hw; subst. cbn [length].
      assert (length w <= length a)%nat by (apply (IH b); auto; exists r; assumption). lia.
  Qed.

  Lemma run_unique (P : N -> Prop) : forall a a' b b', Forall P a -> Forall P a' -> stops P b -> stops P b' ->
    a ++ b = a' ++ b' -> a = a' /\ b = b'.
  Proof.
    induction a as [|x a IH]; intros [|y a'] b b' Ha Ha' Hb Hb' E; cbn [app] in E.
    - auto.
    - subst b. inversion Ha'; subst. contradiction.
    - subst b'. inversion Ha; subst. contradiction.
    - inversion E; subst. inversion Ha; subst. inversion Ha'; subst. destruct (IH a' b b') as [-> ->]; auto.
  Qed.

  Lemma after_quote_spec : forall l, exists body, Forall (fun c => c <> 34) body /\
    l = match after_quote l with Some r => body ++ 34 :: r | None => body end.
  Proof.
    induction l as [|c l (body & Hb & IH)]; cbn [after_quote]; [exists []; auto|].
    destruct (N.eqb_spec c 34) as [->|Hc]; [exists []; auto|].
    exists (c :: body). split; [constructor; assumption|]. destruct (after_quote l); cbn [app]; f_equal; exact IH.
  Qed.
  Lemma bracket_app (a b : N) w r : (a :: w ++ [b]) ++ r = a :: w ++ b :: r.
  Proof. cbn [app]. rewrite <- app_assoc. reflexivity. Qed.

  Lemma sym_string_assoc s w : sym_string s w -> assoc w sym_table = Some s.
  Proof. destruct s; cbn [sym_string]; intros H; try destruct H as [H|H]; subst w; reflexivity. Qed.
  Lemma assoc_sym_string w s : assoc w sym_table = Some s -> sym_string s w.
  Proof. apply (assoc_Forall (fun w s => sym_string s w)). repeat (apply Forall_cons; [cbn; auto|]). apply Forall_nil. Qed.
  Lemma sym_string_nonempty s : ~ sym_string s [].
  Proof. intros H. apply sym_string_assoc in H. discriminate. Qed.

  Lemma scan_symbol_some l s r' : scan_symbol l = Some (s, r') ->
    exists w, l = w ++ r' /\ sym_string s w /\
      forall s' w', prefix w' l -> sym_string s' w' -> (length w' <= length w)%nat.
  Proof.
    rewrite scan_symbol_table. unfold scan_table. intros H.
    destruct (first_match model_alternation l) as [k|] eqn:Ef; [|discriminate].
    destruct (assoc k sym_table) as [s0|] eqn:Ea; [|discriminate]. cbn in H. injection H as Hs Hr. subst s0 r'.
    exists k. split; [apply is_prefix_split, (first_match_in _ _ _ Ef)|]. split; [apply assoc_sym_string; exact Ea|].
    intros s' w' Hp Hs'. apply (first_match_longest model_alternation l k model_alternation_ok Ef); [|destruct Hp as [x ->]; apply is_prefix_app].
    apply (in_map fst _ _ (assoc_in _ _ _ (sym_string_assoc _ _ Hs'))).
  Qed.

  (** the code points that begin a symbol *)
  Definition sym_char (c : N) : bool :=
    (c =? 60) || (c =? 61) || (c =? 62) || match sym1 c with Some _ => true | None => false end.

  Lemma sym_char_scan c r : sym_char c = match scan_symbol (c :: r) with Some _ => true | None => false end.
  Proof.
    unfold sym_char, scan_symbol. destruct (c =? 60).
    { destruct r as [|d r2]; [reflexivity|]. destruct (d =? 61); [|reflexivity]. destruct r2 as [|e r3]; [reflexivity|]. destruct (e =? 62); reflexivity. }
    destruct (c =? 61). { destruct r as [|d r2]; [reflexivity|]. destruct (d =? 62); reflexivity. }
    destruct (c =? 62). { destruct r as [|d r2]; [reflexivity|]. destruct (d =? 61); reflexivity. }
    destruct (sym1 c); reflexivity.
  Qed.

  Lemma sym_string_first s c w : sym_string s (c :: w) -> sym_char c = true.
  Proof.
    destruct s; cbn [sym_string]; intros H; try (destruct H as [H|H]); inversion H; subst; reflexivity.
  Qed.
  Lemma sym_char_class c : sym_char c = true -> is_digit c = false /\ is_word c = false.
  Proof.
    apply (N_in_list_cases [60; 61; 62; 33; 45; 38; 42; 124; 43; 94; 35; 91; 93; 44; 40; 41]) with (c := c); clear c.
    - repeat constructor.
    - intros c H. unfold sym_char, sym1. rewrite !H by reflexivity. discriminate.
  Qed.

  (** the first character of a lexeme decides which constructor of [lexeme] made it ([lexeme_inv]) *)
  Inductive kind : Type := KSym | KNum | KRef | KIdent.
  Definition first_kind (c : N) : option kind :=
    if sym_char c then Some KSym else if is_digit c then Some KNum else if c =? 123 then Some KRef
    else if is_word c then Some KIdent else None.

  Lemma first_kind_digit c : is_digit c = true -> first_kind c = Some KNum.
  Proof.
    intros Hc. unfold first_kind. destruct (sym_char c) eqn:E; [destruct (sym_char_class c E); congruence|]. rewrite Hc. reflexivity.
  Qed.
  Lemma first_kind_ident c : is_word c = true -> is_digit c = false -> first_kind c = Some KIdent.
  Proof.
    intros Hc Hd. unfold first_kind. destruct (sym_char c) eqn:E; [destruct (sym_char_class c E); congruence|]. rewrite Hd.
    destruct (N.eqb_spec c 123) as [->|_]; [discriminate Hc|]. rewrite Hc. reflexivity.
  Qed.

  Lemma lexeme_inv c w t : lexeme (c :: w) t ->
    match first_kind c with
    | Some KSym => exists s, t = RSym s /\ sym_string s (c :: w)
    | Some KNum => t = RNumber (c :: w) /\ all_b is_digit (c :: w)
    | Some KRef => exists w0, w = w0 ++ [125] /\ t = RRef w0 /\ w0 <> [] /\ all_b is_word w0
    | Some KIdent => t = RIdent (c :: w) /\ all_b is_word (c :: w)
    | None => False
    end.
  Proof.
    intros H. inversion H as [s w1 Hs|w1 _ Hd|w1 Hn Hw|c1 w1 Hc Hd Hw]; subst.
    - unfold first_kind. rewrite (sym_string_first _ _ _ Hs). eauto.
    - inversion Hd as [|? ? Hc _]; subst. rewrite (first_kind_digit c Hc). auto.
    - change (first_kind 123) with (Some KRef). exists w1. auto.
    - rewrite (first_kind_ident c Hc Hd). split; auto. constructor; auto.
  Qed.

  Lemma lexeme_nonempty w t : lexeme w t -> w <> [].
  Proof.
    intros H. inversion H; subst; auto; try discriminate. intros ->. eapply sym_string_nonempty; eauto.
  Qed.
  Lemma lexeme_prefix_cons w t c r : lexeme w t -> prefix w (c :: r) -> exists w0, w = c :: w0.
  Proof. intros Hl [rr E]. destruct w as [|x w0]; [destruct (lexeme_nonempty _ _ Hl eq_refl)|]. injection E as -> _. eauto. Qed.

  Definition no_lexeme (l : list N) : Prop := forall w' t', prefix w' l -> ~ lexeme w' t'.
  Definition no_comment (l : list N) : Prop := forall w', prefix w' l -> ~ comment w'.

  Lemma no_lexeme_at c r : first_kind c = None -> no_lexeme (c :: r).
  Proof.
    intros Hk w' t' Hp Hl. destruct (lexeme_prefix_cons _ _ _ _ Hl Hp) as (w0 & ->).
    apply lexeme_inv in Hl. rewrite Hk in Hl. exact Hl.
  Qed.
  Lemma comment_first w : comment w -> exists w0, w = 34 :: w0.
  Proof. intros (body & -> & _). eauto. Qed.
  Lemma no_comment_at c r : c <> 34 -> no_comment (c :: r).
  Proof. intros Hc w' [rr E] Hw. destruct (comment_first _ Hw) as (w0 & ->). inversion E. congruence. Qed.

  (** one step of the maximal-munch relation, the text [l] being a parameter: [l] begins with a longest lexeme
      ([Some t]) or with a comment or stray character to skip ([None]), and [r] remains.  [Lexes] is its iteration. *)
  Inductive head (l : list N) : option rtok -> list N -> Prop :=
  | H_tok w t r : l = w ++ r -> lexeme w t -> maximal w l -> head l (Some t) r
  | H_comment w r : l = w ++ r -> comment w -> no_lexeme l -> head l None r
  | H_skip c r : l = c :: r -> no_lexeme l -> no_comment l -> head l None r.
  Definition ocons (o : option rtok) (ts : list rtok) : list rtok := match o with Some t => t :: ts | None => ts end.

  Lemma Lexes_head l o r ts : head l o r -> Lexes r ts -> Lexes l (ocons o ts).
  Proof. intros [w t r0 -> Hl Hm|w r0 -> Hc Hn|c r0 -> Hn Hc] H; [apply Lx_tok|apply Lx_comment|apply Lx_skip]; assumption. Qed.
  Lemma head_shorter l o r : head l o r -> (length r < length l)%nat.
  Proof.
    intros [w t r0 -> Hl _|w r0 -> Hc _|c r0 -> _ _]; [apply lexeme_nonempty in Hl|destruct (comment_first _ Hc) as (w0 & ->)|];
      try rewrite app_length; try (destruct w; [congruence|]); cbn [length]; lia.
  Qed.

  Lemma sym_head c r s r' : scan_symbol (c :: r) = Some (s, r') -> head (c :: r) (Some (RSym s)) r'.
  Proof.
    intros Es. pose proof (sym_char_scan c r) as Hc. rewrite Es in Hc.
    destruct (scan_symbol_some _ _ _ Es) as (w & E & Hs & Hmax). apply (H_tok _ w); [exact E|constructor; exact Hs|].
    intros w' t' Hp Hl. destruct (lexeme_prefix_cons _ _ _ _ Hl Hp) as (w0 & ->).
    apply lexeme_inv in Hl. unfold first_kind in Hl. rewrite Hc in Hl. destruct Hl as (s' & _ & Hs'). exact (Hmax s' _ Hp Hs').
  Qed.

  Lemma run_maximal (P : N -> Prop) c a b : stops P b ->
    (forall w t', lexeme (c :: w) t' -> Forall P (c :: w)) -> maximal (c :: a) ((c :: a) ++ b).
  Proof.
    intros Hb Hrun w' t' Hp Hl'. destruct (lexeme_prefix_cons _ _ _ _ Hl' Hp) as (w0 & ->).
    exact (run_prefix P (c :: a) b _ (Hrun _ _ Hl') Hb Hp).
  Qed.
  (** the number and identifier arms of [scan_head] *)
  Lemma run_head (p : N -> bool) tok c r a b : p c = true -> span p (c :: r) = (a, b) ->
    (forall w, all_b p (c :: w) -> lexeme (c :: w) (tok (c :: w))) -> (forall w t, lexeme (c :: w) t -> all_b p (c :: w)) ->
    head (c :: r) (Some (tok a)) b.
  Proof.
    intros Hc Es Hin Hrun. destruct (span_spec _ _ _ _ Es) as (E & Ha & Hb). destruct (span_head _ _ _ _ _ Hc Es) as (a0 & ->).
    apply (H_tok _ (c :: a0)); [exact E|exact (Hin _ Ha)|]. rewrite E. apply (run_maximal (fun x => p x = true)); assumption.
  Qed.

  Lemma brace_lexeme r w rest w' t' : span is_word r = (w, rest) -> prefix w' (123 :: r) -> lexeme w' t' ->
    w' = 123 :: w ++ [125] /\ w <> [] /\ exists rr, rest = 125 :: rr.
  Proof.
    intros Es Hp Hl. destruct (lexeme_prefix_cons _ _ _ _ Hl Hp) as (w1 & ->).
    apply lexeme_inv in Hl. change (first_kind 123) with (Some KRef) in Hl. destruct Hl as (w0 & -> & _ & Hn & Hw0).
    destruct Hp as [rr E]. rewrite bracket_app in E. injection E as E.
    destruct (span_spec _ _ _ _ Es) as (Er & Hw & Hst). rewrite Er in E.
    destruct (run_unique (fun c => is_word c = true) w w0 rest (125 :: rr) Hw Hw0 Hst) as [-> ->]; [cbn; discriminate|exact E|]. eauto.
  Qed.
  Lemma ref_head r w r' : span is_word r = (w, 125 :: r') -> w <> [] -> head (123 :: r) (Some (RRef w)) r'.
  Proof.
    intros Es Hn. destruct (span_spec _ _ _ _ Es) as (E & Hw & _).
    apply (H_tok _ (123 :: w ++ [125])); [rewrite bracket_app, <- E; reflexivity|constructor; auto|].
    intros w' t' Hp Hl. destruct (brace_lexeme _ _ _ _ _ Es Hp Hl) as (-> & _). lia.
  Qed.
  Lemma ref_skip r w rest : span is_word r = (w, rest) -> w = [] \/ (forall rr, rest <> 125 :: rr) -> head (123 :: r) None r.
  Proof.
    intros Es Hno. apply (H_skip _ 123); [reflexivity| |apply no_comment_at; discriminate].
    intros w' t' Hp Hl. destruct (brace_lexeme _ _ _ _ _ Es Hp Hl) as (_ & Hn & rr & Hr). destruct Hno as [->|Hno]; [congruence|exact (Hno _ Hr)].
  Qed.
  (** the way a match on the literal [125] is compiled *)
  Lemma brace_match {A} (rest : list N) (x : A) (f : list N -> A) :
    (forall rr, rest <> 125 :: rr) -> match rest with 125 :: rr => f rr | _ => x end = x.
  Proof.
    intros H. destruct rest as [|c1 rr]; auto. destruct c1 as [|p]; auto. repeat (destruct p as [p|p|]; auto). destruct (H rr eq_refl).
  Qed.

  Lemma quote_head r : head (34 :: r) None (match after_quote r with Some r' => r' | None => r end).
  Proof.
    destruct (after_quote_spec r) as (body & Hb & E). destruct (after_quote r) as [r'|]; subst r.
    - apply (H_comment _ (34 :: body ++ [34])); [symmetry; apply bracket_app|exists body; auto|]. apply no_lexeme_at. reflexivity.
    - apply (H_skip _ 34); [reflexivity|apply no_lexeme_at; reflexivity|].
      intros w' [rr E] (b & -> & _). rewrite bracket_app in E. injection E as ->.
      apply Forall_app in Hb. destruct Hb as [_ Hb]. inversion Hb; subst. congruence.
  Qed.

  Lemma scan_head k c r : exists o r', head (c :: r) o r' /\ scan uc (S k) (c :: r) = ocons o (scan uc k r').
  Proof.
    cbn [scan]. destruct (scan_symbol (c :: r)) as [[s r']|] eqn:Es.
    { exists (Some (RSym s)), r'. split; [apply sym_head; exact Es|reflexivity]. }
    pose proof (sym_char_scan c r) as Hsc. rewrite Es in Hsc. destruct (is_digit c) eqn:Ed.
    { destruct (span is_digit (c :: r)) as [ds r'] eqn:Esp. exists (Some (RNumber ds)), r'. split; [|reflexivity].
      apply (run_head is_digit RNumber _ _ _ _ Ed Esp).
      - intros w Hw. apply L_num; [discriminate|exact Hw].
      - intros w t Hl. apply lexeme_inv in Hl. rewrite (first_kind_digit c Ed) in Hl. apply Hl. }
    destruct (N.eqb_spec c 123) as [->|Hb].
    { destruct (span is_word r) as [w rest] eqn:Esp.
      assert (D : (exists rr, rest = 125 :: rr) \/ forall rr, rest <> 125 :: rr).
      { destruct rest as [|c1 rr]; [right; discriminate|]. destruct (N.eqb_spec c1 125) as [->|]; [eauto|right; congruence]. }
      destruct D as [(rr & ->)|D].
      - destruct w as [|x w0].
        + exists None, r. split; [apply (ref_skip _ _ _ Esp); auto|reflexivity].
        + exists (Some (RRef (x :: w0))), rr. split; [apply (ref_head _ _ _ Esp); discriminate|reflexivity].
      - exists None, r. split; [apply (ref_skip _ _ _ Esp); auto|]. apply (brace_match rest). exact D. }
    destruct (is_word c) eqn:Ew.
    { destruct (span is_word (c :: r)) as [w r'] eqn:Esp. exists (Some (RIdent w)), r'. split; [|reflexivity].
      apply (run_head is_word RIdent _ _ _ _ Ew Esp).
      - intros w0 Hw. inversion Hw; subst. apply L_ident; auto.
      - intros w0 t Hl. apply lexeme_inv in Hl. rewrite (first_kind_ident c Ew Ed) in Hl. apply Hl. }
    assert (Hk : first_kind c = None).
    { unfold first_kind. rewrite Hsc, Ed, Ew. destruct (N.eqb_spec c 123); [contradiction|reflexivity]. }
    destruct (N.eqb_spec c 34) as [->|Hq].
    - eexists None, _. split; [apply quote_head|]. destruct (after_quote r); reflexivity.
    - exists None, r. split; [|reflexivity]. apply (H_skip _ c); [reflexivity|apply no_lexeme_at; exact Hk|apply no_comment_at; exact Hq].
  Qed.

  Theorem scan_spec : forall k l, (length l < k)%nat -> Lexes l (scan uc k l).
  Proof.
    induction k as [|k IH]; intros l Hk; [lia|]. destruct l as [|c r]; [constructor|].
    destruct (scan_head k c r) as (o & r' & Hh & ->). apply (Lexes_head _ _ _ _ Hh). apply IH.
    pose proof (head_shorter _ _ _ Hh). lia.
  Qed.

  Theorem C08_lex l : Lexes l (lex_raw uc l).
  Proof. apply scan_spec. lia. Qed.
End Spec.
Print Assumptions C08_lex.
