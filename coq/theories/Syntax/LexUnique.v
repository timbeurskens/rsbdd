(** The lexing relation [Lexes] (LexSpec.v) is functional: a text has exactly one tokenisation, the
    one the scanner computes. *)
From Coq Require Import List NArith Lia.
Import ListNotations.
From Rsbdd Require Import Syntax.Lexer Syntax.SrcTables Syntax.LexSpec.
Local Open Scope N_scope.

Section Unique.
  Variable uc : N -> ucls.
  Notation lexeme := (lexeme uc).
  Notation Lexes := (Lexes uc).
  Notation head := (head uc).

  Lemma sym_string_fun s1 s2 w : sym_string s1 w -> sym_string s2 w -> s1 = s2.
  Proof. intros H1 H2. apply sym_string_assoc in H1, H2. congruence. Qed.

  Lemma lexeme_fun w t1 t2 : lexeme w t1 -> lexeme w t2 -> t1 = t2.
  Proof.
    intros H1 H2. destruct w as [|c w]; [destruct (lexeme_nonempty uc _ _ H1 eq_refl)|].
    apply lexeme_inv in H1, H2. destruct (first_kind uc c) as [[]|].
    - destruct H1 as (s1 & -> & S1), H2 as (s2 & -> & S2). f_equal. exact (sym_string_fun _ _ _ S1 S2).
    - destruct H1 as [-> _], H2 as [-> _]. reflexivity.
    - destruct H1 as (a & E1 & -> & _), H2 as (b & E2 & -> & _). rewrite E1 in E2. apply app_inj_tail in E2. destruct E2 as [-> _]. reflexivity.
    - destruct H1 as [-> _], H2 as [-> _]. reflexivity.
    - destruct H1.
  Qed.

  (** a comment prefix is determined: its body is the run of non-quotes after the opening quote *)
  Lemma comment_fun w1 w2 l : comment w1 -> comment w2 -> prefix w1 l -> prefix w2 l -> w1 = w2.
  Proof.
    intros (b1 & -> & F1) (b2 & -> & F2) [r1 ->] [r2 E]. rewrite !bracket_app in E. injection E as E.
    destruct (run_unique (fun c => c <> 34) b1 b2 (34 :: r1) (34 :: r2) F1 F2) as [-> _]; cbn; auto.
  Qed.

  Lemma head_fun l o1 r1 o2 r2 : head l o1 r1 -> head l o2 r2 -> o1 = o2 /\ r1 = r2.
  Proof.
    intros [w1 t1 r1' E1 L1 M1|w1 r1' E1 C1 N1|c1 r1' E1 N1 NC1] [w2 t2 r2' E2 L2 M2|w2 r2' E2 C2 N2|c2 r2' E2 N2 NC2].
    - (* two tokens: each is maximal, so they are equally long *)
      assert (w1 = w2) as <-.
      { apply (prefixes_same_length _ _ l); [rewrite E1; apply is_prefix_app|rewrite E2; apply is_prefix_app|].
        pose proof (M1 w2 t2 (ex_intro _ r2' E2) L2). pose proof (M2 w1 t1 (ex_intro _ r1' E1) L1). lia. }
      rewrite E1 in E2. apply app_inv_head in E2. rewrite (lexeme_fun _ _ _ L1 L2). auto.
    - destruct (N2 w1 t1 (ex_intro _ r1' E1) L1).
    - destruct (N2 w1 t1 (ex_intro _ r1' E1) L1).
    - destruct (N1 w2 t2 (ex_intro _ r2' E2) L2).
    - assert (w1 = w2) as <- by (apply (comment_fun _ _ l); auto; [exists r1'|exists r2']; assumption).
      rewrite E1 in E2. apply app_inv_head in E2. auto.
    - destruct (NC2 w1 (ex_intro _ r1' E1) C1).
    - destruct (N1 w2 t2 (ex_intro _ r2' E2) L2).
    - destruct (NC1 w2 (ex_intro _ r2' E2) C2).
    - rewrite E1 in E2. injection E2 as _ ->. auto.
  Qed.

  Lemma Lexes_inv l ts : Lexes l ts -> l = [] /\ ts = [] \/ exists o r ts', head l o r /\ Lexes r ts' /\ ts = ocons o ts'.
  Proof.
    intros [|w t r ts' L M R|w r ts' C Nl R|c r ts' Nl Nc R];
      [left; auto|right; exists (Some t), r, ts'|right; exists None, r, ts'|right; exists None, r, ts']; repeat split; auto.
    - apply (H_tok uc _ w); auto.
    - apply (H_comment uc _ w); auto.
    - apply (H_skip uc _ c); auto.
  Qed.

  Lemma Lexes_scan : forall k l ts, (length l < k)%nat -> Lexes l ts -> ts = scan uc k l.
  Proof.
    induction k as [|k IH]; intros l ts Hk H; [lia|].
    destruct (Lexes_inv _ _ H) as [[-> ->]|(o & r & ts' & Hh & R & ->)]; [reflexivity|].
    pose proof (head_shorter uc _ _ _ Hh) as Hr. destruct l as [|c l]; [cbn in Hr; lia|].
    destruct (scan_head uc k c l) as (o' & r' & Hh' & ->). destruct (head_fun _ _ _ _ _ Hh Hh') as [-> ->].
    f_equal. apply IH; [lia|exact R].
  Qed.

  Corollary C08_lex_unique l ts : Lexes l ts <-> ts = lex_raw uc l.
  Proof.
    split.
    - apply Lexes_scan. lia.
    - intros ->. apply C08_lex.
  Qed.
End Unique.
Print Assumptions C08_lex_unique.
