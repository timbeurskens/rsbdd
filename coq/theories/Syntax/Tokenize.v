(** The model splits [tokenize] (src/parser.rs:710-821) into two passes: Lexer.v [lex_raw] for the
    TOKENIZER regex, and [classify] here for the body of the loop over its matches (731-818):
    identifiers through the keyword arms or to variable ids (preloaded from the ordering, then
    numbered by first appearance), numbers to usize (D2: one that does not fit is an error), one Eof
    at the end.
    Modelling decision: the source resolves the symbol aliases ([&]/[*], [|]/[+], [-]/[!]) in the loop
    body, in the arms of [match symbol.as_str()]; the model resolves them in the first pass (Lexer.v
    [scan_symbol] / [sym1] return one [sym] per token), so [token_of_sym] here is a one-to-one renaming.
    SrcTables.v [src_lexer_agrees] relates regex alternation + arms to [scan_symbol] + [token_of_sym]. *)
From Coq Require Import List NArith Bool Lia String Ascii.
Import ListNotations.
From Rsbdd Require Import Syntax.Token Syntax.Lexer Syntax.Parser Syntax.Grammar Syntax.ParserSound Syntax.ParserComplete.
Local Open Scope N_scope.

Definition name := list N.
Fixpoint name_eqb (a b : name) : bool :=
  match a, b with [], [] => true | x :: a', y :: b' => (x =? y) && name_eqb a' b' | _, _ => false end.
Lemma name_eqb_spec a b : reflect (a = b) (name_eqb a b).
Proof.
  revert b. induction a as [|x a IH]; intros [|y b]; cbn [name_eqb]; try (constructor; congruence).
  destruct (N.eqb_spec x y); cbn; [|constructor; congruence]. destruct (IH b); constructor; congruence.
Qed.

Fixpoint str (s : string) : name :=
  match s with EmptyString => [] | String c r => N_of_ascii c :: str r end.

Definition token_of_sym (s : sym) : token :=
  match s with
  | SAnd => TAnd | SOr => TOr | SXor => TXor | SNot => TNot | SImplies => TImplies | SImpliesInv => TImpliesInv
  | SIff => TIff | SHash => THash | SEq => TEq | SLt => TLt | SGt => TGt | SGeq => TGeq
  | SOpenParen => TOpenParen | SCloseParen => TCloseParen | SOpenSquare => TOpenSquare
  | SCloseSquare => TCloseSquare | SComma => TComma
  end.

(** the arms of [match identifier.as_str()] *)
Definition keywords : list (name * token) :=
  [ (str "false", TFalse); (str "true", TTrue); (str "not", TNot); (str "and", TAnd); (str "or", TOr);
    (str "xor", TXor); (str "nor", TNor); (str "nand", TNand); (str "implies", TImplies); (str "in", TImplies);
    (str "iff", TIff); (str "eq", TIff); (str "exists", TExists); (str "any", TExists);
    (str "forall", TForall); (str "all", TForall); (str "if", TIf); (str "then", TThen); (str "else", TElse);
    (str "gfp", TGFP); (str "nu", TGFP); (str "lfp", TLFP); (str "mu", TLFP) ]%string.

Fixpoint assoc {B} (w : name) (l : list (name * B)) : option B :=
  match l with [] => None | (k, v) :: r => if name_eqb k w then Some v else assoc w r end.

Lemma assoc_in {B} (l : list (name * B)) w v : assoc w l = Some v -> In (w, v) l.
Proof.
  induction l as [|[k u] r IH]; cbn [assoc]; [discriminate|]. destruct (name_eqb_spec k w) as [->|NE].
  - intros E. inversion E; subst. left. reflexivity.
  - intros E. right. apply IH. exact E.
Qed.
Lemma assoc_none {B} (l : list (name * B)) w : assoc w l = None <-> ~ In w (map fst l).
Proof.
  induction l as [|[k u] r IH]; cbn [assoc map fst]; [tauto|]. destruct (name_eqb_spec k w) as [->|NE].
  - split; [discriminate|]. intros H. exfalso. apply H. left. reflexivity.
  - rewrite IH. split; [intros H [E|Hin]; [contradiction|exact (H Hin)]|intros H Hin; apply H; right; exact Hin].
Qed.
Lemma assoc_map {B C} (f : B -> C) w (l : list (name * B)) :
  assoc w (map (fun e => (fst e, f (snd e))) l) = option_map f (assoc w l).
Proof. induction l as [|[k v] r IH]; cbn [map assoc fst snd]; [reflexivity|]. destruct (name_eqb k w); auto. Qed.

Lemma assoc_Forall {B} (P : name -> B -> Prop) (l : list (name * B)) w v :
  Forall (fun e => P (fst e) (snd e)) l -> assoc w l = Some v -> P w v.
Proof. intros F H. apply assoc_in in H. rewrite Forall_forall in F. exact (F _ H). Qed.
Lemma assoc_cons_eq {B} w (v : B) m : assoc w ((w, v) :: m) = Some v.
Proof. cbn [assoc]. destruct (name_eqb_spec w w); [reflexivity|contradiction]. Qed.
Lemma assoc_cons_ne {B} w w' (v : B) m : w <> w' -> assoc w' ((w, v) :: m) = assoc w' m.
Proof. intros H. cbn [assoc]. destruct (name_eqb_spec w w'); [contradiction|reflexivity]. Qed.

(** decimal value of a string of ASCII digits; anything else, a non-ASCII [\d] digit of [RNumber] included, is
    rejected as by Rust's [parse::<usize>].  The u64 bound is in [parse_usize]. *)
Fixpoint dec_value (acc : N) (ds : list N) : option N :=
  match ds with
  | [] => Some acc
  | d :: r => if (48 <=? d) && (d <=? 57) then dec_value (acc * 10 + (d - 48)) r else None
  end.
Definition parse_usize (ds : list N) : option N :=
  match dec_value 0 ds with Some n => if n <? 18446744073709551616 then Some n else None | None => None end.

(** the id table: latest binding first *)
Definition idmap := list (name * nat).

Fixpoint classify (m : idmap) (ctr : nat) (rs : list rtok) : option (list token) :=
  match rs with
  | [] => Some [TEof]
  | RSym s :: r => option_map (cons (token_of_sym s)) (classify m ctr r)
  | RNumber ds :: r =>
      match parse_usize ds with
      | Some n => option_map (cons (TNum n)) (classify m ctr r)
      | None => None                                          (* InvalidData, not a panic (D2) *)
      end
  | RRef _ :: r => option_map (cons TRefT) (classify m ctr r)
  | RIdent w :: r =>
      match assoc w keywords with
      | Some t => option_map (cons t) (classify m ctr r)
      | None =>
          match assoc w m with
          | Some id => option_map (cons (TVar id)) (classify m ctr r)
          | None => option_map (cons (TVar ctr)) (classify ((w, ctr) :: m) (S ctr) r)
          end
      end
  end.

(** preloading from the ordering (parser.rs:719-726): later entries win, numbering continues after
    the largest id *)
Definition preload (ordering : list (name * nat)) : idmap * nat :=
  fold_left (fun st e => ((fst e, snd e) :: fst st, Nat.max (snd st) (S (snd e)))) ordering ([], 0%nat).

Definition tokenize (uc : N -> ucls) (ordering : list (name * nat)) (txt : list N) : option (list token) :=
  let '(m, ctr) := preload ordering in classify m ctr (lex_raw uc txt).

(** the loop body of [classify] ([classify_cons]) *)
Definition step_tok (m : idmap) (ctr : nat) (r : rtok) : option (token * idmap * nat) :=
  match r with
  | RSym s => Some (token_of_sym s, m, ctr)
  | RNumber ds => option_map (fun n => (TNum n, m, ctr)) (parse_usize ds)
  | RRef _ => Some (TRefT, m, ctr)
  | RIdent w =>
      match assoc w keywords with
      | Some t => Some (t, m, ctr)
      | None => match assoc w m with Some id => Some (TVar id, m, ctr) | None => Some (TVar ctr, (w, ctr) :: m, S ctr) end
      end
  end.
Lemma classify_cons m ctr r rs : classify m ctr (r :: rs) =
  match step_tok m ctr r with Some (t, m', c') => option_map (cons t) (classify m' c' rs) | None => None end.
Proof.
  destruct r as [s|ds|w|w]; cbn [classify step_tok]; try reflexivity.
  - destruct (parse_usize ds); reflexivity.
  - destruct (assoc w keywords); [reflexivity|]. destruct (assoc w m); reflexivity.
Qed.

Lemma keyword_token w t : assoc w keywords = Some t -> t <> TEof /\ (forall v, t <> TVar v) /\ (forall n, t <> TNum n).
Proof.
  intros H. apply assoc_in in H.
  pose proof (proj1 (forallb_forall (fun e => match snd e with TEof | TVar _ | TNum _ => false | _ => true end) keywords) eq_refl _ H) as Hp.
  repeat split; intros; intros ->; discriminate.
Qed.
Lemma step_tok_not_eof m c r t m' c' : step_tok m c r = Some (t, m', c') -> t <> TEof.
Proof.
  destruct r as [s|ds|w|w]; cbn [step_tok].
  - intros [= <- _ _]. destruct s; discriminate.
  - destruct (parse_usize ds); [|discriminate]. intros [= <- _ _]. discriminate.
  - intros [= <- _ _]. discriminate.
  - destruct (assoc w keywords) as [k|] eqn:Ek; [intros [= <- _ _]; exact (proj1 (keyword_token _ _ Ek))|].
    destruct (assoc w m); intros [= <- _ _]; discriminate.
Qed.
Lemma step_tok_none m c m' c' r : step_tok m c r = None -> step_tok m' c' r = None.
Proof.
  destruct r as [s|ds|w|w]; cbn [step_tok]; try discriminate.
  - destruct (parse_usize ds); [discriminate|reflexivity].
  - destruct (assoc w keywords); [discriminate|]. destruct (assoc w m); discriminate.
Qed.
Lemma eof_last_cons x ts : x <> TEof -> eof_last ts -> eof_last (x :: ts).
Proof. intros Hx H [|y s] r E; injection E as E1 E2; [contradiction|exact (H s r E2)]. Qed.
Lemma classify_eof_last : forall rs m ctr ts, classify m ctr rs = Some ts -> eof_last ts.
Proof.
  induction rs as [|t rs IH]; intros m ctr ts H.
  - injection H as <-. intros [|y [|z s]] r E; inversion E. reflexivity.
  - rewrite classify_cons in H. destruct (step_tok m ctr t) as [[[x m'] c']|] eqn:Es; [|discriminate].
    destruct (classify m' c' rs) as [ts'|] eqn:E; [|discriminate]. injection H as <-.
    exact (eof_last_cons x ts' (step_tok_not_eof _ _ _ _ _ _ Es) (IH _ _ _ E)).
Qed.

(** ids below the counter, one name per id: kept when a new name is numbered *)
Definition idinv (m : idmap) (ctr : nat) : Prop :=
  (forall w i, assoc w m = Some i -> (i < ctr)%nat) /\
  (forall w w' i, assoc w m = Some i -> assoc w' m = Some i -> w = w').

Lemma idinv_fresh m ctr w : idinv m ctr -> assoc w m = None -> idinv ((w, ctr) :: m) (S ctr).
Proof.
  intros [Hlt Hinj] _. split.
  - intros w' i. cbn [assoc]. destruct (name_eqb w w'); [intros [= <-]; lia|]. intros H. specialize (Hlt _ _ H). lia.
  - intros w1 w2 i. cbn [assoc]. destruct (name_eqb_spec w w1) as [<-|_], (name_eqb_spec w w2) as [<-|_]; intros H1 H2.
    + reflexivity.
    + injection H1 as <-. specialize (Hlt _ _ H2). lia.
    + injection H2 as <-. specialize (Hlt _ _ H1). lia.
    + exact (Hinj _ _ _ H1 H2).
Qed.

Theorem tokenize_eof_last uc ordering txt ts : tokenize uc ordering txt = Some ts -> eof_last ts.
Proof. unfold tokenize. destruct (preload ordering) as [m ctr]. apply classify_eof_last. Qed.

Theorem C08_text uc ordering txt ts f : tokenize uc ordering txt = Some ts ->
  (parse ts = Ok f [] <-> G_formula ts f).
Proof. intros H. apply C08. eapply tokenize_eof_last; eauto. Qed.
Print Assumptions C08_text.
