(** Lexer.v [scan_symbol] is [model_alternation] read leftmost-first.  The tables of the SOURCE are not in this file:
    a translator (lib/vlib/srctab.py) re-reads the
    symbol alternation of the TOKENIZER regex and the arms of [match symbol.as_str()] and [match identifier.as_str()]
    (src/parser.rs) from /repo on every run, emits them as Gallina lists and applies [src_lexer_agrees] /
    [src_keywords_agree] to them, the two checks being decided by computation: "the regex alternation followed by the
    symbol arms computes exactly what the model's [scan_symbol] / [token_of_sym] compute, on every input" and "the keyword
    arms are the model's keyword table". *)
From Coq Require Import List NArith Bool Arith Lia.
Import ListNotations.
From Rsbdd Require Import Syntax.Lexer Syntax.Token Syntax.Tokenize.
Local Open Scope N_scope.

Fixpoint is_prefix (a l : list N) : bool :=
  match a, l with
  | [], _ => true
  | x :: a', y :: l' => (y =? x) && is_prefix a' l'
  | _ :: _, [] => false
  end.
Definition first_match (alts : list (list N)) (l : list N) : option (list N) := find (fun a => is_prefix a l) alts.

Lemma is_prefix_spec a : forall l, is_prefix a l = true <-> firstn (length a) l = a.
Proof.
  induction a as [|x a IH]; intros l; cbn [is_prefix length firstn]; [tauto|].
  destruct l as [|y l]; [split; discriminate|]. cbn [firstn]. rewrite andb_true_iff, IH, N.eqb_eq. split.
  - intros [-> ->]. reflexivity.
  - intros H. inversion H; subst. rewrite H2. auto.
Qed.
Lemma prefixes_same_length a b l : is_prefix a l = true -> is_prefix b l = true -> length a = length b -> a = b.
Proof. rewrite !is_prefix_spec. intros Ha Hb Hl. rewrite <- Ha. rewrite Hl. exact Hb. Qed.
Lemma prefix_of_prefix a b l : is_prefix a l = true -> is_prefix b l = true -> (length a <= length b)%nat -> is_prefix a b = true.
Proof.
  rewrite !is_prefix_spec. intros Ha Hb Hle. rewrite <- Hb. rewrite firstn_firstn. rewrite Nat.min_l by exact Hle. exact Ha.
Qed.

Lemma is_prefix_app a r : is_prefix a (a ++ r) = true.
Proof. apply is_prefix_spec. rewrite firstn_app, Nat.sub_diag, firstn_all. apply app_nil_r. Qed.
Lemma is_prefix_split a l : is_prefix a l = true -> l = a ++ skipn (length a) l.
Proof. intros H. apply is_prefix_spec in H. rewrite <- H at 1. symmetry. apply firstn_skipn. Qed.

(** no alternative is a proper prefix of a LATER one: then the leftmost match is the longest match *)
Fixpoint prefix_order_ok (alts : list (list N)) : bool :=
  match alts with
  | [] => true
  | a :: r => forallb (fun b => negb (is_prefix a b && negb (length a =? length b)%nat)) r && prefix_order_ok r
  end.
Lemma first_match_longest : forall alts l a, prefix_order_ok alts = true -> first_match alts l = Some a ->
  forall b, In b alts -> is_prefix b l = true -> (length b <= length a)%nat.
Proof.
  unfold first_match. induction alts as [|x alts IH]; intros l a Hok Hf b Hb Hp; [destruct Hb|].
  cbn [prefix_order_ok] in Hok. apply andb_true_iff in Hok. destruct Hok as [Hx Hok]. cbn [find] in Hf.
  destruct (is_prefix x l) eqn:Ex.
  - injection Hf as <-. destruct Hb as [<-|Hb]; [lia|].
    destruct (Nat.le_gt_cases (length b) (length x)) as [Hle|Hgt]; [exact Hle|].
    rewrite forallb_forall in Hx. specialize (Hx b Hb). rewrite (prefix_of_prefix x b l Ex Hp) in Hx by lia.
    destruct (Nat.eqb_spec (length x) (length b)); [lia|discriminate].
  - destruct Hb as [<-|Hb]; [congruence|]. apply (IH l a Hok Hf b Hb Hp).
Qed.
Lemma first_match_in alts l a : first_match alts l = Some a -> In a alts /\ is_prefix a l = true.
Proof. unfold first_match. intros H. apply find_some in H. exact H. Qed.
Lemma first_match_none alts l : first_match alts l = None -> forall b, In b alts -> is_prefix b l = false.
Proof. unfold first_match. intros H b Hb. exact (find_none _ _ H b Hb). Qed.

(** for [scan_symbol_table]: at a character [c] that begins no alternative (all of them begin with a [q]-character) nothing matches *)
Lemma first_match_other (q : N -> bool) alts c r : (forall k, q k = true -> (c =? k) = false) ->
  forallb (fun a => match a with x :: _ => q x | [] => false end) alts = true -> first_match alts (c :: r) = None.
Proof.
  intros H. unfold first_match. induction alts as [|[|x a] alts IH]; cbn [forallb find is_prefix]; [reflexivity|discriminate|].
  intros Hq. apply andb_true_iff in Hq. destruct Hq as [Hx Hq]. rewrite (H x Hx). exact (IH Hq).
Qed.

Lemma first_match_same_set alts alts' l : prefix_order_ok alts = true -> prefix_order_ok alts' = true ->
  (forall a, In a alts <-> In a alts') -> first_match alts l = first_match alts' l.
Proof.
  intros Hok Hok' Hset.
  destruct (first_match alts l) as [a|] eqn:E, (first_match alts' l) as [a'|] eqn:E'.
  - destruct (first_match_in _ _ _ E) as [Hin Hp]. destruct (first_match_in _ _ _ E') as [Hin' Hp'].
    pose proof (first_match_longest alts l a Hok E a' (proj2 (Hset a') Hin') Hp').
    pose proof (first_match_longest alts' l a' Hok' E' a (proj1 (Hset a) Hin) Hp).
    f_equal. apply (prefixes_same_length a a' l); auto; lia.
  - destruct (first_match_in _ _ _ E) as [Hin Hp]. rewrite (first_match_none _ _ E' a (proj1 (Hset a) Hin)) in Hp. discriminate.
  - destruct (first_match_in _ _ _ E') as [Hin Hp]. rewrite (first_match_none _ _ E a' (proj2 (Hset a') Hin)) in Hp. discriminate.
  - reflexivity.
Qed.

(** three tables: the regex alternation (order matters), the arms of [match symbol.as_str()] (string to token),
    and the same strings against the model's intermediate [sym] *)
Definition model_alternation : list (list N) :=
  [ [60; 61; 62]; [60; 61]; [61; 62]; [62; 61]; [60]; [61]; [62]; [33]; [45]; [38]; [42]; [124]; [43]; [94]; [35]; [91]; [93]; [44]; [40]; [41] ].
Definition model_symbols : list (list N * token) :=
  [ ([60; 61; 62], TIff); ([60; 61], TImpliesInv); ([61; 62], TImplies); ([62; 61], TGeq); ([60], TLt); ([61], TEq); ([62], TGt);
    ([33], TNot); ([45], TNot); ([38], TAnd); ([42], TAnd); ([124], TOr); ([43], TOr); ([94], TXor); ([35], THash);
    ([91], TOpenSquare); ([93], TCloseSquare); ([44], TComma); ([40], TOpenParen); ([41], TCloseParen) ].

Definition sym_table : list (list N * sym) :=
  [ ([60; 61; 62], SIff); ([60; 61], SImpliesInv); ([61; 62], SImplies); ([62; 61], SGeq); ([60], SLt); ([61], SEq); ([62], SGt);
    ([33], SNot); ([45], SNot); ([38], SAnd); ([42], SAnd); ([124], SOr); ([43], SOr); ([94], SXor); ([35], SHash);
    ([91], SOpenSquare); ([93], SCloseSquare); ([44], SComma); ([40], SOpenParen); ([41], SCloseParen) ].
Lemma model_symbols_table : model_symbols = map (fun e => (fst e, token_of_sym (snd e))) sym_table. Proof. reflexivity. Qed.

(** for [scan_symbol_table]: split on "[c] is one of [L]" / "[c] differs from every member of [L]", the second in the form [first_match_other] takes *)
Lemma N_in_list_cases (L : list N) (P : N -> Prop) :
  Forall P L -> (forall c, (forall k, existsb (N.eqb k) L = true -> (c =? k) = false) -> P c) -> forall c, P c.
Proof.
  intros HL Hn c. destruct (in_dec N.eq_dec c L) as [Hin|Hout].
  - rewrite Forall_forall in HL. auto.
  - apply Hn. intros k Hk. apply N.eqb_neq. intros ->.
    apply existsb_exists in Hk. destruct Hk as (x & Hx & E). apply N.eqb_eq in E. subst x. contradiction.
Qed.

Definition scan_table (l : list N) : option (sym * list N) :=
  match first_match model_alternation l with
  | Some k => option_map (fun s => (s, skipn (length k) l)) (assoc k sym_table)
  | None => None
  end.
(** the hand-written scanner is the table read leftmost-first: at a listed character both sides compute (after one or two
    further characters for [<], [=], [>]), at any other both fail *)
Lemma scan_symbol_table l : scan_symbol l = scan_table l.
Proof.
  destruct l as [|c r]; [reflexivity|]. revert r.
  apply (N_in_list_cases [60; 61; 62; 33; 45; 38; 42; 124; 43; 94; 35; 91; 93; 44; 40; 41]) with (c := c); clear c.
  - repeat constructor; intros r; try reflexivity.
    + destruct r as [|d r]; [reflexivity|]. unfold scan_table. simpl.
      destruct (N.eqb_spec d 61) as [->|_]; [|reflexivity].
      destruct r as [|e r]; [reflexivity|]. simpl. destruct (e =? 62); reflexivity.
    + destruct r as [|d r]; [reflexivity|]. unfold scan_table. simpl. destruct (d =? 62); reflexivity.
    + destruct r as [|d r]; [reflexivity|]. unfold scan_table. simpl. destruct (d =? 61); reflexivity.
  - intros c H r. unfold scan_table. rewrite (first_match_other _ model_alternation c r H eq_refl).
    unfold scan_symbol, sym1. rewrite !H by reflexivity. reflexivity.
Qed.

Theorem scan_symbol_spec l :
  match first_match model_alternation l with
  | Some k => exists s, scan_symbol l = Some (s, skipn (length k) l) /\ assoc k model_symbols = Some (token_of_sym s)
  | None => scan_symbol l = None
  end.
Proof.
  rewrite scan_symbol_table. unfold scan_table. destruct (first_match model_alternation l) as [k|] eqn:E; [|reflexivity].
  rewrite model_symbols_table, assoc_map. destruct (assoc k sym_table) as [s|] eqn:Ea; [exists s; auto|].
  apply assoc_none in Ea. destruct Ea. exact (proj1 (first_match_in _ _ _ E)).
Qed.

(** payload-free tokens are compared by number ([sub_map]); [untag] inverts [tag] from 2 on, its default arm being the image of 2 *)
Definition tag (t : token) : N :=
  match t with
  | TVar _ => 0 | TNum _ => 1 | TRefT => 2 | TAnd => 3 | TOr => 4 | TNot => 5 | TXor => 6 | TNor => 7 | TNand => 8 | TImplies => 9
  | TImpliesInv => 10 | TIff => 11 | TIf => 12 | TThen => 13 | TElse => 14 | TExists => 15 | TForall => 16 | TEq => 17 | TGeq => 18
  | TGt => 19 | TLt => 20 | TOpenParen => 21 | TCloseParen => 22 | TOpenSquare => 23 | TCloseSquare => 24 | TComma => 25
  | TFalse => 26 | TTrue => 27 | TLFP => 28 | TGFP => 29 | THash => 30 | TEof => 31
  end.
Definition untag (n : N) : token :=
  match n with
  | 3 => TAnd | 4 => TOr | 5 => TNot | 6 => TXor | 7 => TNor | 8 => TNand | 9 => TImplies
  | 10 => TImpliesInv | 11 => TIff | 12 => TIf | 13 => TThen | 14 => TElse | 15 => TExists | 16 => TForall | 17 => TEq | 18 => TGeq
  | 19 => TGt | 20 => TLt | 21 => TOpenParen | 22 => TCloseParen | 23 => TOpenSquare | 24 => TCloseSquare | 25 => TComma
  | 26 => TFalse | 27 => TTrue | 28 => TLFP | 29 => TGFP | 30 => THash | 31 => TEof | _ => TRefT
  end.
Lemma untag_tag a : 2 <= tag a -> untag (tag a) = a.
Proof. destruct a; intros H; try reflexivity; exfalso; apply H; reflexivity. Qed.
Lemma tag_inj a b : 2 <= tag a -> tag a = tag b -> a = b.
Proof. intros H E. rewrite <- (untag_tag a H), E. apply untag_tag. rewrite <- E. exact H. Qed.

Fixpoint nodup_keys {B} (l : list (name * B)) : bool :=
  match l with [] => true | (k, _) :: r => negb (existsb (fun e => name_eqb k (fst e)) r) && nodup_keys r end.
Definition sub_map (a b : list (name * token)) : bool :=
  forallb (fun kv => (2 <=? tag (snd kv)) && match assoc (fst kv) b with Some t => tag t =? tag (snd kv) | None => false end) a.
Definition same_map (a b : list (name * token)) : bool :=
  sub_map a b && (length a =? length b)%nat && nodup_keys a && nodup_keys b.

Lemma nodup_keys_spec {B} (l : list (name * B)) : nodup_keys l = true -> NoDup (map fst l).
Proof.
  induction l as [|[k v] r IH]; cbn [nodup_keys map fst]; intros H; [constructor|].
  apply andb_true_iff in H. destruct H as [H1 H2]. constructor; [|apply IH; exact H2].
  intros Hin. apply in_map_iff in Hin. destruct Hin as (e & Ee & Hin). apply negb_true_iff in H1.
  assert (existsb (fun e0 => name_eqb k (fst e0)) r = true); [|congruence].
  apply existsb_exists. exists e. split; [exact Hin|]. rewrite Ee. destruct (name_eqb_spec k k); [reflexivity|contradiction].
Qed.
Lemma in_assoc {B} (l : list (name * B)) w v : NoDup (map fst l) -> In (w, v) l -> assoc w l = Some v.
Proof.
  induction l as [|[k u] r IH]; intros Hnd Hin; [destruct Hin|]. inversion Hnd as [|? ? Hk Hnd']; subst.
  destruct Hin as [[= -> ->]|Hin]; [apply assoc_cons_eq|].
  rewrite assoc_cons_ne; [exact (IH Hnd' Hin)|]. intros ->. exact (Hk (in_map fst _ _ Hin)).
Qed.

Theorem same_map_sound a b : same_map a b = true -> forall w, assoc w a = assoc w b.
Proof.
  unfold same_map. rewrite !andb_true_iff. intros [[[Hsub Hlen] Hna] _] w.
  apply Nat.eqb_eq in Hlen. apply nodup_keys_spec in Hna. unfold sub_map in Hsub. rewrite forallb_forall in Hsub.
  assert (Hab : forall k t, In (k, t) a -> assoc k b = Some t).
  { intros k t Hin. specialize (Hsub _ Hin). cbn [fst snd] in Hsub. apply andb_true_iff in Hsub. destruct Hsub as [Ht Hsub].
    destruct (assoc k b) as [t'|]; [|discriminate]. f_equal. symmetry.
    apply tag_inj; [apply N.leb_le; exact Ht|symmetry; apply N.eqb_eq; exact Hsub]. }
  symmetry. destruct (assoc w a) as [t|] eqn:Ea; [exact (Hab _ _ (assoc_in _ _ _ Ea))|].
  (* the keys of [a] are distinct, all among those of [b], and as many: [b] has no other key *)
  apply assoc_none. apply assoc_none in Ea. intros Hin. apply Ea. revert Hin.
  apply NoDup_length_incl; [exact Hna|rewrite !map_length; lia|].
  intros k Hk. apply in_map_iff in Hk. destruct Hk as ([k' t] & <- & Hin). exact (in_map fst _ _ (assoc_in _ _ _ (Hab _ _ Hin))).
Qed.

Definition same_set (x y : list (list N)) : bool :=
  forallb (fun a => existsb (name_eqb a) y) x && forallb (fun a => existsb (name_eqb a) x) y.
Lemma subset_spec x y : forallb (fun a => existsb (name_eqb a) y) x = true -> forall a, In a x -> In a y.
Proof.
  rewrite forallb_forall. intros H a Hin. specialize (H a Hin). apply existsb_exists in H. destruct H as (b & Hb & E).
  destruct (name_eqb_spec a b); [subst; exact Hb|discriminate].
Qed.
Lemma same_set_spec x y : same_set x y = true -> forall a, In a x <-> In a y.
Proof. unfold same_set. rewrite andb_true_iff. intros [H1 H2] a. split; apply subset_spec; assumption. Qed.
Definition alternation_ok (alts : list (list N)) : bool := prefix_order_ok alts && same_set alts model_alternation.

Lemma model_alternation_ok : prefix_order_ok model_alternation = true. Proof. vm_compute. reflexivity. Qed.

(** the regex alternation (leftmost-first) followed by the symbol arms is the model's scanner followed by token_of_sym *)
Theorem src_lexer_agrees alts arms : alternation_ok alts = true -> same_map arms model_symbols = true ->
  forall l, match first_match alts l with
            | Some k => exists s, scan_symbol l = Some (s, skipn (length k) l) /\ assoc k arms = Some (token_of_sym s)
            | None => scan_symbol l = None
            end.
Proof.
  unfold alternation_ok. rewrite andb_true_iff. intros [Hok Hset] Hmap l.
  rewrite (first_match_same_set alts model_alternation l Hok model_alternation_ok (same_set_spec _ _ Hset)).
  pose proof (scan_symbol_spec l) as H. destruct (first_match model_alternation l) as [k|]; [|exact H].
  destruct H as (s & Hs & Ha). exists s. split; [exact Hs|]. rewrite (same_map_sound arms model_symbols Hmap k). exact Ha.
Qed.
Theorem src_keywords_agree arms : same_map arms keywords = true -> forall w, assoc w arms = assoc w keywords.
Proof. exact (same_map_sound arms keywords). Qed.
Print Assumptions src_lexer_agrees. Print Assumptions src_keywords_agree.

(** an alternation in another order (that of src/parser.rs) satisfies the condition; the model's own tables have
    distinct keys and payload-free tokens *)
Example pinned_tables :
  alternation_ok [ [33]; [38]; [61; 62]; [45]; [60; 61; 62]; [60; 61]; [124]; [94]; [35]; [42]; [43]; [62; 61]; [61]; [62]; [60]; [91]; [93]; [44]; [40]; [41] ] = true
  /\ same_map model_symbols model_symbols = true /\ same_map keywords keywords = true.
Proof. repeat split; vm_compute; reflexivity. Qed.
