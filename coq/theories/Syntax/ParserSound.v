(** C08 (soundness): whatever the parser accepts is a sentence of the grammar, with that tree. *)
From Coq Require Import List Arith Lia.
Import ListNotations.
From Rsbdd Require Import Lang.Ast Syntax.Token Syntax.Parser Syntax.Grammar.

(** what follows an open term: it extends as far right as it can, so no operator comes next *)
Definition nobin (ts : list token) : Prop := match ts with t :: _ => binop_of t = None | [] => True end.

Lemma then_inv {A} r (K : list token -> res A) a rest :
  match r with TThen :: r1 => K r1 | _ => Err end = Ok a rest -> exists r1, r = TThen :: r1 /\ K r1 = Ok a rest.
Proof. destruct r as [|[] r1]; try discriminate. eauto. Qed.
Lemma else_inv {A} r (K : list token -> res A) a rest :
  match r with TElse :: r1 => K r1 | _ => Err end = Ok a rest -> exists r1, r = TElse :: r1 /\ K r1 = Ok a rest.
Proof. destruct r as [|[] r1]; try discriminate. eauto. Qed.
Lemma hash_inv {A} r (K : list token -> res A) a rest :
  match r with THash :: r1 => K r1 | _ => Err end = Ok a rest -> exists r1, r = THash :: r1 /\ K r1 = Ok a rest.
Proof. destruct r as [|[] r1]; try discriminate. eauto. Qed.
Lemma close_paren_inv {A} r (K : list token -> res A) a rest :
  match r with TCloseParen :: r1 => K r1 | _ => Err end = Ok a rest -> exists r1, r = TCloseParen :: r1 /\ K r1 = Ok a rest.
Proof. destruct r as [|[] r1]; try discriminate. eauto. Qed.
Lemma eof_inv {A} r (K : list token -> res A) a rest :
  match r with TEof :: r1 => K r1 | _ => Err end = Ok a rest -> exists r1, r = TEof :: r1 /\ K r1 = Ok a rest.
Proof. destruct r as [|[] r1]; try discriminate. eauto. Qed.
(** the comma is optional: the other branch is the default [d] *)
Lemma comma_inv {A} r (K : list token -> A) (d x : A) :
  match r with TComma :: r1 => K r1 | _ => d end = x -> (exists r1, r = TComma :: r1 /\ K r1 = x) \/ d = x.
Proof. destruct r as [|[] r1]; eauto. Qed.

Lemma p_vars_sound : forall ts vs rest, p_vars ts = Ok vs rest -> exists s, ts = s ++ rest /\ Gvars s vs.
Proof.
  intros ts. induction ts as [ts IH] using (induction_ltof1 _ (@length token)). unfold ltof in IH.
  intros vs rest H. destruct ts as [|t ts']; cbn [p_vars] in H; [discriminate|].
  destruct t; try discriminate.
  - apply comma_inv in H. destruct H as [(r & -> & H)|H].
    + destruct (p_vars r) as [vs' r'| |] eqn:E; try discriminate. inversion H; subst.
      apply IH in E; [|cbn; lia]. destruct E as (s & -> & Hg). exists (TVar v :: TComma :: s). split; auto. constructor; auto.
    + inversion H; subst. exists [TVar v]. split; auto. constructor.
  - inversion H; subst. exists []. split; auto. constructor.
Qed.

(** Unfolding equations, one for each leading token that is followed by a recursive call.  To check one the kernel
    compares the three mutually recursive bodies once for every call in it: that is paid here, the proofs rewrite. *)
Lemma p_sub_S n ts : p_sub (S n) ts =
  match p_simple n ts with
  | Ok l rest =>
      match rest with
      | t :: rest' =>
          match binop_of t with
          | Some op => match p_sub n rest' with Ok r rest'' => Ok (FBin op l r) rest'' | e => e end
          | None => Ok l rest
          end
      | [] => Ok l rest
      end
  | e => e
  end.
Proof. reflexivity. Qed.
Lemma p_simple_quant n q r : p_simple (S n) (tok_of_quant q :: r) =
  match p_vars r with
  | Ok vs (THash :: r1) => match p_sub n r1 with Ok f r2 => Ok (FQuant q vs f) r2 | e => e end
  | Ok _ _ => Err | Err => Err | Fuel => Fuel
  end.
Proof. destruct q; reflexivity. Qed.
Lemma p_simple_fix n b ts : p_simple (S n) (tok_of_fix b :: ts) =
  match ts with
  | TVar v :: THash :: r => match p_sub n r with Ok f r' => Ok (FFix v b f) r' | e => e end
  | _ => Err
  end.
Proof. destruct b; reflexivity. Qed.
Lemma p_simple_not n r : p_simple (S n) (TNot :: r) = match p_simple n r with Ok f r' => Ok (FNot f) r' | e => e end.
Proof. reflexivity. Qed.
Lemma p_simple_paren n r : p_simple (S n) (TOpenParen :: r) =
  match p_sub n r with Ok f (TCloseParen :: r') => Ok f r' | Ok _ _ => Err | e => e end.
Proof. reflexivity. Qed.
Lemma p_simple_if n r : p_simple (S n) (TIf :: r) =
  match p_sub n r with
  | Ok c (TThen :: r1) =>
      match p_sub n r1 with
      | Ok t (TElse :: r2) => match p_sub n r2 with Ok e r3 => Ok (FIte c t e) r3 | x => x end
      | Ok _ _ => Err | x => x
      end
  | Ok _ _ => Err | x => x
  end.
Proof. reflexivity. Qed.
Lemma p_simple_count n r : p_simple (S n) (TOpenSquare :: r) =
  match p_items n r with
  | Ok l (t :: r1) =>
      match cop_of t with
      | None => Err
      | Some op =>
          match r1 with
          | TOpenSquare :: r2 => match p_items n r2 with Ok rr r3 => Ok (FCountV op l rr) r3 | Err => Err | Fuel => Fuel end
          | TNum c :: r2 => Ok (FCountC op l c) r2
          | _ => Err
          end
      end
  | Ok _ [] => Err | Err => Err | Fuel => Fuel
  end.
Proof. reflexivity. Qed.

(** the tokens a formula can start with *)
Definition first_tok (t : token) : bool :=
  match t with
  | TOpenParen | TOpenSquare | TFalse | TTrue | TRefT | TVar _ | TNot | TExists | TForall | TGFP | TLFP | TIf => true
  | _ => false
  end.
Definition starts_ok (ts : list token) : Prop := match ts with t :: _ => first_tok t = true | [] => False end.

Definition items_body (n : nat) (ts : list token) : res (list form) :=
  match p_sub n ts with
  | Ok f (TComma :: r) => match p_items n r with Ok fs r' => Ok (f :: fs) r' | Err => Err | Fuel => Fuel end
  | Ok f (TCloseSquare :: r) => Ok [f] r
  | Ok _ _ => Err | Err => Err | Fuel => Fuel
  end.
(** [p_items] repeats its two calls under every first token but [TCloseSquare]: the equation is stated for those that matter *)
Lemma p_items_eq n ts : starts_ok ts -> p_items (S n) ts = items_body n ts.
Proof. intros H. destruct ts as [|[] r]; try discriminate H; [destruct H|reflexivity..]. Qed.
(** any other first token is refused by [p_simple], two calls down: three levels of fuel show it by evaluation *)
Lemma p_items_cases n ts :
  match p_items (S n) ts with Ok fs rest => ts = TCloseSquare :: rest /\ fs = [] \/ starts_ok ts | _ => True end.
Proof.
  (* the tokens on which the parser goes on are set aside first: [lazy] would spread the three bodies over the goal *)
  destruct ts as [|[] r]; try (destruct (p_items _ _); [right; reflexivity|exact I..]).
  all: destruct n as [|[|n]]; lazy; auto.
Qed.

Lemma p_simple_first n ts : match p_simple n ts with Ok _ _ => starts_ok ts | _ => True end.
Proof.
  destruct ts as [|[] r]; try (destruct (p_simple _ _); [reflexivity|exact I..]).
  all: destruct n; lazy; exact I.
Qed.

Definition sub_sound (n : nat) : Prop :=
  forall ts f rest, p_sub n ts = Ok f rest -> exists s, ts = s ++ rest /\ Gsub s f /\ nobin rest.
Definition simple_at (n : nat) (ts : list token) : Prop :=
  forall f rest, p_simple n ts = Ok f rest -> exists s, ts = s ++ rest /\ (Gclosed s f \/ (Gopen s f /\ nobin rest)).
Definition simple_sound (n : nat) : Prop := forall ts, simple_at n ts.
Definition items_sound (n : nat) : Prop :=
  forall ts fs rest, p_items n ts = Ok fs rest -> exists s, ts = s ++ rest /\ Gitems s fs.

Lemma quant_sound n q ts : sub_sound n -> simple_at (S n) (tok_of_quant q :: ts).
Proof.
  intros IH f rest H. rewrite p_simple_quant in H.
  destruct (p_vars ts) as [vs r1| |] eqn:E1; try discriminate. apply hash_inv in H. destruct H as (r1' & -> & H).
  destruct (p_sub n r1') as [b r2| |] eqn:E2; try discriminate. inversion H; subst.
  apply p_vars_sound in E1. destruct E1 as (sv & -> & Gv). apply IH in E2. destruct E2 as (s & -> & G & Nb).
  exists (tok_of_quant q :: sv ++ THash :: s). split; [cbn [app]; rewrite <- app_assoc; reflexivity|].
  right. split; [apply Go_quant; assumption|exact Nb].
Qed.
Lemma fix_sound n b ts : sub_sound n -> simple_at (S n) (tok_of_fix b :: ts).
Proof.
  intros IH f rest H. rewrite p_simple_fix in H.
  destruct ts as [|[] ts1]; try discriminate. apply hash_inv in H. destruct H as (r & -> & H).
  destruct (p_sub n r) as [g r2| |] eqn:E2; try discriminate. inversion H; subst.
  apply IH in E2. destruct E2 as (s & -> & G & Nb).
  exists (tok_of_fix b :: TVar v :: THash :: s). split; [reflexivity|]. right. split; [apply Go_fix; assumption|exact Nb].
Qed.

Lemma sub_step n : simple_sound n -> sub_sound n -> sub_sound (S n).
Proof.
  intros IHsim IHsub ts f rest H. rewrite p_sub_S in H.
  destruct (p_simple n ts) as [l r1| |] eqn:E; try discriminate.
  apply IHsim in E. destruct E as (s1 & Hts & Hl).
  assert (Hdone : forall (Hnb : nobin r1), Ok l r1 = Ok f rest -> exists s, ts = s ++ rest /\ Gsub s f /\ nobin rest).
  { intros Hnb Heq. inversion Heq; subst. exists s1. split; auto. split; auto.
    destruct Hl as [Hc|[Ho _]]; [apply Gs_closed|apply Gs_open]; auto. }
  destruct r1 as [|t r1']; [apply Hdone; cbn; auto; exact H|].
  destruct (binop_of t) as [op|] eqn:Eb; [|apply Hdone; cbn; auto].
  destruct Hl as [Hc|[_ Hno]]; [|cbn in Hno; congruence].
  destruct (p_sub n r1') as [r r2| |] eqn:E2; try discriminate.
  inversion H; subst. apply IHsub in E2. destruct E2 as (s2 & Hr & Hg & Hno).
  exists (s1 ++ t :: s2). subst r1'. rewrite <- app_assoc. cbn [app]. split; auto. split; auto.
  eapply Gs_bin; eauto.
Qed.

Lemma simple_step n : simple_sound n -> sub_sound n -> items_sound n -> simple_sound (S n).
Proof.
  intros IHsim IHsub IHit ts f rest H. pose proof (p_simple_first (S n) ts) as Hf. rewrite H in Hf.
  destruct ts as [|[] ts']; try discriminate Hf; [destruct Hf|..];
    (* a token that is a term by itself *)
    try (injection H as <- <-; eexists [_]; split; [reflexivity|left; constructor]).
  - rewrite p_simple_not in H. destruct (p_simple n ts') as [x r1| |] eqn:E; try discriminate. inversion H; subst.
    apply IHsim in E. destruct E as (s & -> & Hg). exists (TNot :: s). split; auto.
    destruct Hg as [Hc|[Ho Hno]]; [left|right; split; auto]; constructor; auto.
  - rewrite p_simple_if in H. destruct (p_sub n ts') as [c r1| |] eqn:E1; try discriminate. apply then_inv in H. destruct H as (r1' & -> & H).
    destruct (p_sub n r1') as [th r2| |] eqn:E2; try discriminate. apply else_inv in H. destruct H as (r2' & -> & H).
    destruct (p_sub n r2') as [el r3| |] eqn:E3; try discriminate. inversion H; subst.
    apply IHsub in E1. destruct E1 as (s1 & -> & G1 & _).
    apply IHsub in E2. destruct E2 as (s2 & -> & G2 & _).
    apply IHsub in E3. destruct E3 as (s3 & -> & G3 & N3).
    exists (TIf :: s1 ++ TThen :: s2 ++ TElse :: s3).
    split; [cbn [app]; rewrite <- !app_assoc; cbn [app]; rewrite <- !app_assoc; reflexivity|].
    right. split; auto. constructor; auto.
  - exact (quant_sound n QExists ts' IHsub f rest H).
  - exact (quant_sound n QForall ts' IHsub f rest H).
  - rewrite p_simple_paren in H. destruct (p_sub n ts') as [x r1| |] eqn:E; try discriminate. apply close_paren_inv in H. destruct H as (r1' & -> & H).
    inversion H; subst. apply IHsub in E. destruct E as (s & -> & Hg & _). exists (TOpenParen :: s ++ [TCloseParen]).
    split; [cbn [app]; rewrite <- app_assoc; reflexivity|]. left. constructor; auto.
  - rewrite p_simple_count in H. destruct (p_items n ts') as [l r1| |] eqn:E1; try discriminate.
    destruct r1 as [|t1 r1']; try discriminate.
    destruct (cop_of t1) as [op|] eqn:Ec; try discriminate.
    apply IHit in E1. destruct E1 as (s1 & -> & G1).
    destruct r1' as [|[] r2]; try discriminate.
    + inversion H; subst. exists (TOpenSquare :: s1 ++ [t1; TNum n0]).
      split; [cbn [app]; rewrite <- app_assoc; reflexivity|]. left. econstructor; eauto.
    + destruct (p_items n r2) as [rr r3| |] eqn:E2; try discriminate. inversion H; subst.
      apply IHit in E2. destruct E2 as (s2 & -> & G2).
      exists (TOpenSquare :: s1 ++ t1 :: TOpenSquare :: s2).
      split; [cbn [app]; rewrite <- app_assoc; reflexivity|]. left. econstructor; eauto.
  - exact (fix_sound n false ts' IHsub f rest H).
  - exact (fix_sound n true ts' IHsub f rest H).
Qed.

Lemma items_step n : sub_sound n -> items_sound n -> items_sound (S n).
Proof.
  intros IHsub IHit ts fs rest H. pose proof (p_items_cases n ts) as C. rewrite H in C. destruct C as [[-> ->]|Hf].
  { exists [TCloseSquare]. split; auto. constructor. }
  rewrite (p_items_eq _ _ Hf) in H.
  unfold items_body in H. destruct (p_sub n ts) as [f r1| |] eqn:E1; try discriminate.
  apply IHsub in E1. destruct E1 as (s & -> & G & _).
  destruct r1 as [|[] r1']; try discriminate.
  - inversion H; subst. exists (s ++ [TCloseSquare]). split; [rewrite <- app_assoc; reflexivity|]. constructor; auto.
  - destruct (p_items n r1') as [fs' r2| |] eqn:E2; try discriminate. inversion H; subst.
    apply IHit in E2. destruct E2 as (s' & -> & G'). exists (s ++ TComma :: s'). split; [rewrite <- app_assoc; reflexivity|]. constructor; auto.
Qed.

Lemma sound_mut : forall n,
  (forall ts f rest, p_sub n ts = Ok f rest -> exists s, ts = s ++ rest /\ Gsub s f /\ nobin rest) /\
  (forall ts f rest, p_simple n ts = Ok f rest -> exists s, ts = s ++ rest /\ (Gclosed s f \/ (Gopen s f /\ nobin rest))) /\
  (forall ts fs rest, p_items n ts = Ok fs rest -> exists s, ts = s ++ rest /\ Gitems s fs).
Proof.
  induction n as [|n (IHsub & IHsim & IHit)]; [repeat split; intros; discriminate|].
  split; [exact (sub_step n IHsim IHsub)|]. split; [exact (simple_step n IHsim IHsub IHit)|exact (items_step n IHsub IHit)].
Qed.

(** The source's [parse_formula] expects [Eof] and ignores whatever follows it; in what [tokenize] returns nothing
    follows an [Eof] (Tokenize.v [tokenize_eof_last]). *)
Definition eof_last (ts : list token) : Prop := forall s r, ts = s ++ TEof :: r -> r = [].

Lemma parse_f_inv n ts f r : parse_f n ts = Ok f r -> r = [] /\ exists r', p_sub n ts = Ok f (TEof :: r').
Proof.
  unfold parse_f. destruct (p_sub n ts) as [x r0| |]; try discriminate.
  intros H. apply eof_inv in H. destruct H as (r1 & -> & H). inversion H; subst. eauto.
Qed.

Theorem C08_sound n ts f : parse_f n ts = Ok f [] -> exists s r, ts = s ++ TEof :: r /\ Gsub s f.
Proof.
  intros H. destruct (parse_f_inv _ _ _ _ H) as (_ & r & E).
  apply (proj1 (sound_mut n)) in E. destruct E as (s & Hs & Hg & _). exists s, r. auto.
Qed.

Corollary C08_sound_lexed n ts f : eof_last ts -> parse_f n ts = Ok f [] -> G_formula ts f.
Proof.
  intros He H. destruct (C08_sound n ts f H) as (s & r & Hs & Hg). rewrite (He s r Hs) in Hs. exists s. auto.
Qed.
Print Assumptions C08_sound_lexed.
