(** The grammar of the language as an inductive relation over exact token spans (one tree per sentence:
    ParserComplete.v [C08_unique]).  [Gv_nil] admits an empty variable list, as the parser does.
    closed/open terms encode: binary operators right-associative without precedence, negation
    applies to the next simple term, bodies of quantifiers / fixed points / if-then-else extend
    as far right as possible, lists with optional trailing comma. *)
From Coq Require Import List NArith.
Import ListNotations.
From Rsbdd Require Import Lang.Ast Syntax.Token.

Inductive Gvars : list token -> list nat -> Prop :=
| Gv_nil : Gvars [] []
| Gv_one v : Gvars [TVar v] [v]
| Gv_cons v s vs : Gvars s vs -> Gvars (TVar v :: TComma :: s) (v :: vs).

Inductive Gsub : list token -> form -> Prop :=
| Gs_closed s f : Gclosed s f -> Gsub s f
| Gs_bin s1 f1 t op s2 f2 : Gclosed s1 f1 -> binop_of t = Some op -> Gsub s2 f2 -> Gsub (s1 ++ t :: s2) (FBin op f1 f2)
| Gs_open s f : Gopen s f -> Gsub s f
with Gclosed : list token -> form -> Prop :=
| Gc_paren s f : Gsub s f -> Gclosed (TOpenParen :: s ++ [TCloseParen]) f
| Gc_countc s l t op c : Gitems s l -> cop_of t = Some op -> Gclosed (TOpenSquare :: s ++ [t; TNum c]) (FCountC op l c)
| Gc_countv s1 l t op s2 r : Gitems s1 l -> cop_of t = Some op -> Gitems s2 r ->
    Gclosed (TOpenSquare :: s1 ++ t :: TOpenSquare :: s2) (FCountV op l r)
| Gc_false : Gclosed [TFalse] FFalse
| Gc_true : Gclosed [TTrue] FTrue
| Gc_ref : Gclosed [TRefT] FRef
| Gc_var v : Gclosed [TVar v] (FVar v)
| Gc_not s f : Gclosed s f -> Gclosed (TNot :: s) (FNot f)
with Gopen : list token -> form -> Prop :=
| Go_exists sv vs s f : Gvars sv vs -> Gsub s f -> Gopen (TExists :: sv ++ THash :: s) (FQuant QExists vs f)
| Go_forall sv vs s f : Gvars sv vs -> Gsub s f -> Gopen (TForall :: sv ++ THash :: s) (FQuant QForall vs f)
| Go_gfp v s f : Gsub s f -> Gopen (TGFP :: TVar v :: THash :: s) (FFix v true f)
| Go_lfp v s f : Gsub s f -> Gopen (TLFP :: TVar v :: THash :: s) (FFix v false f)
| Go_ite s1 c s2 t s3 e : Gsub s1 c -> Gsub s2 t -> Gsub s3 e ->
    Gopen (TIf :: s1 ++ TThen :: s2 ++ TElse :: s3) (FIte c t e)
| Go_not s f : Gopen s f -> Gopen (TNot :: s) (FNot f)
(** list items up to and including the closing bracket *)
with Gitems : list token -> list form -> Prop :=
| Gi_nil : Gitems [TCloseSquare] []
| Gi_one s f : Gsub s f -> Gitems (s ++ [TCloseSquare]) [f]
| Gi_cons s f s' fs : Gsub s f -> Gitems s' fs -> Gitems (s ++ TComma :: s') (f :: fs).

Scheme Gsub_mut := Induction for Gsub Sort Prop
with Gclosed_mut := Induction for Gclosed Sort Prop
with Gopen_mut := Induction for Gopen Sort Prop
with Gitems_mut := Induction for Gitems Sort Prop.
Combined Scheme G_mutind from Gsub_mut, Gclosed_mut, Gopen_mut, Gitems_mut.

Definition G_formula (ts : list token) (f : form) : Prop := exists s, ts = s ++ [TEof] /\ Gsub s f.

Definition tok_of_quant (q : quant) : token := match q with QExists => TExists | QForall => TForall end.
Definition tok_of_fix (gfp : bool) : token := if gfp then TGFP else TLFP.
Lemma Go_quant q sv vs s f : Gvars sv vs -> Gsub s f -> Gopen (tok_of_quant q :: sv ++ THash :: s) (FQuant q vs f).
Proof. destruct q; constructor; assumption. Qed.
Lemma Go_fix b v s f : Gsub s f -> Gopen (tok_of_fix b :: TVar v :: THash :: s) (FFix v b f).
Proof. destruct b; constructor; assumption. Qed.
