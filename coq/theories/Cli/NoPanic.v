(** C12, the two facts stated apart from the pipeline: the column lookup of the table printer succeeds on the answer of a
    formula over the columns of its free variables, and formulas without fixed points always evaluate. *)
From Coq Require Import List Lia.
Import ListNotations.
From Rsbdd Require Import Lang.Ast Lang.AstFacts Lang.Eval Lang.EvalSound Lang.Free Lang.FSem.
From Rsbdd Require Import Cli.Table.

(** the same function as [Pipeline.free_of] (Cli.Pipeline is not imported here): the variables of [vars] (all identifier
    ids, sorted, without repetition) that [var_is_free] accepts (the loop of new_with_env, parser.rs:267-278) *)
Definition free_vars (vars : list nat) (f : form) : list nat := filter (var_is_free f) vars.

Theorem C12_table_total vars f n b :
  nofsub f -> NoDup vars -> (forall x, var_is_free f x = true -> In x vars) ->
  eval_f n f = Some b ->
  exists rows, tt_rows (free_vars vars f) b (map (fun _ => TA) (free_vars vars f)) = Some rows.
Proof.
  intros Hns Hnd Hvars He.
  destruct (sound n f b (nofsub_wf f Hns) He) as [_ [Ho _]].
  destruct (tt_rows_all (free_vars vars f) b) as (rows & Hrows & _); [apply NoDup_filter, Hnd|exact Ho| |eauto].
  intros x Hx. apply filter_In. pose proof (C09_support n f b Hns He x Hx). auto.
Qed.

Lemma map_opt_total {A B} (f : A -> option B) l : Forall (fun a => exists b, f a = Some b) l -> exists bs, map_opt f l = Some bs.
Proof.
  induction 1 as [|a l (b & Hb) Hl (bs & IH)]; cbn [map_opt]; [eexists; reflexivity|].
  rewrite Hb, IH. eexists; reflexivity.
Qed.

Theorem nofix_total : forall f n, nofix f -> size f <= n -> exists b, eval_f n f = Some b.
Proof.
  intros f n. revert f. induction n as [|n IH]; intros f Hn Hsz; [pose proof (size_pos f); lia|].
  assert (IHs : forall fs, Forall nofix fs -> sizes fs <= n -> exists bs, map_opt (eval_f n) fs = Some bs).
  { intros fs Hfs Hs. apply map_opt_total. rewrite Forall_forall in *. intros g Hg. pose proof (size_in g fs Hg). apply IH; [auto|lia]. }
  unfold sizes in IHs.
  destruct f as [| |v|g|q vs g|op fs c|op l r|y i g|c t e|op l r|b0|]; cbn [eval_f]; cbn [nofix size] in *.
  1-3, 11-12: eexists; reflexivity.
  - destruct (IH g Hn ltac:(lia)) as (x & ->). eexists; reflexivity.
  - destruct (IH g Hn ltac:(lia)) as (x & ->). destruct q; eexists; reflexivity.
  - apply nofix_list in Hn. destruct (IHs fs Hn ltac:(lia)) as (bs & ->). eexists; reflexivity.
  - destruct Hn as [Nl Nr]. apply nofix_list in Nl. apply nofix_list in Nr.
    destruct (IHs l Nl ltac:(lia)) as (xs & ->). destruct (IHs r Nr ltac:(lia)) as (ys & ->). eexists; reflexivity.
  - destruct Hn.
  - destruct Hn as (N1 & N2 & N3).
    destruct (IH c N1 ltac:(lia)) as (x & ->). destruct (IH t N2 ltac:(lia)) as (y' & ->). destruct (IH e N3 ltac:(lia)) as (z & ->).
    eexists; reflexivity.
  - destruct Hn as (N1 & N2). destruct (IH l N1 ltac:(lia)) as (x & ->). destruct (IH r N2 ltac:(lia)) as (y' & ->). eexists; reflexivity.
Qed.
Print Assumptions C12_table_total.
Print Assumptions nofix_total.
