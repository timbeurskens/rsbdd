(** What the pipeline of Cli/Pipeline.v returns, stage by stage, and [cli] as a whole: [cli_eq] is the run unfolded,
    [cli_ok_inv] what a run that printed went through (ordering, parse, answer, unfiltered rows). *)
From Coq Require Import List PeanoNat NArith Lia Sorted Permutation.
Import ListNotations.
From Rsbdd Require Import Core.Bdd Core.Ops Core.Canon Core.Pres Core.Cube Core.Retain.
From Rsbdd Require Import Lang.Ast Lang.Den Lang.Eval Lang.EvalSound Lang.Free Lang.FreeGen Lang.FixLang.
From Rsbdd Require Import Syntax.Token Syntax.Lexer Syntax.Tokenize Syntax.Parser Syntax.Grammar Syntax.ParserSound Syntax.Printer.
From Rsbdd Require Import Io.DotBdd Cli.Table Cli.TableFilter Cli.Pipeline.

Lemma tok_vars_In ts x : In x (tok_vars ts) <-> In (TVar x) ts.
Proof.
  induction ts as [|t ts [IH1 IH2]]; [tauto|]. split.
  - destruct t; cbn [tok_vars In]; auto. intros [-> | H]; auto.
  - intros [-> | H]; [left; reflexivity|]. destruct t; cbn [tok_vars In]; auto.
Qed.

Lemma tok_vars_app a b : tok_vars (a ++ b) = tok_vars a ++ tok_vars b.
Proof. induction a as [|t a IH]; [reflexivity|]. destruct t; cbn [app tok_vars]; try exact IH. exact (f_equal (cons v) IH). Qed.

Lemma Gvars_toks s vs : Gvars s vs -> incl vs (tok_vars s).
Proof.
  induction 1 as [|v|v s vs _ IH]; cbn [tok_vars]; intros x Hx; auto.
  destruct Hx as [->|Hx]; [left; reflexivity|right; apply IH; exact Hx].
Qed.

Lemma grammar_vars :
  (forall s f, Gsub s f -> incl (map TVar (all_vars f)) s) /\
  (forall s f, Gclosed s f -> incl (map TVar (all_vars f)) s) /\
  (forall s f, Gopen s f -> incl (map TVar (all_vars f)) s) /\
  (forall s l, Gitems s l -> incl (map TVar (flat_map all_vars l)) s).
Proof.
  apply G_mutind; intros; cbn [all_vars flat_map map]; rewrite ?map_app.
  all: repeat apply incl_app; auto 7 using incl_nil_l, incl_appl, incl_appr, incl_tl, incl_refl.
Qed.

(** the support of the answer consists of proper free occurrences (C09_support with [fv] for [var_is_free]) *)
Theorem support_fv n f b : nofsub f -> eval_f n f = Some b -> forall x, In x (support b) -> fv f x = true.
Proof.
  intros Hns He. destruct (sound n f b (nofsub_wf f Hns) He) as [HD Hrb].
  apply (support_by_Den_indep b (fv f) Hrb). intros x Hfv.
  apply (Den_indep f empty (bden b) x Hns); try apply env_all_empty; [|exact HD]. rewrite Hfv. discriminate.
Qed.

Theorem parse_vars ts f r : parse ts = Ok f r ->
  nofsub f /\ forall x, fv f x = true -> In x (tok_vars ts).
Proof.
  intros H. destruct (parse_f_inv _ ts f r H) as [-> _].
  destruct (C08_sound _ ts f H) as (s & r & -> & HG).
  pose proof (proj1 grammar_nofsub s f HG) as Hns. split; [exact Hns|].
  (* [fv] counts the occurrences not under a binder of the same name ([vocc]), and those inside embedded diagrams: there are none *)
  intros x Hx. apply tok_vars_In, in_or_app. left.
  exact (proj1 grammar_vars s f HG _ (in_map TVar _ x (vocc_all_vars f x (fv_vocc f x (nofsub_submentions f x Hns) Hx)))).
Qed.

Lemma dedup_acc_uniq : forall l seen, dedup_acc seen l = uniq_acc Nat.eqb seen l.
Proof. induction l as [|x l IH]; intros seen; cbn [dedup_acc uniq_acc]; [reflexivity|]. unfold mem_nat. rewrite !IH. reflexivity. Qed.
Lemma dedup_acc_In seen l x : In x (dedup_acc seen l) <-> In x l /\ ~ In x seen.
Proof. rewrite dedup_acc_uniq. apply (uniq_acc_spec Nat.eqb Nat.eqb_spec). Qed.
Lemma dedup_acc_NoDup seen l : NoDup (dedup_acc seen l).
Proof. rewrite dedup_acc_uniq. apply (uniq_acc_spec Nat.eqb Nat.eqb_spec). Qed.
Lemma insert_sorted_perm x l : Permutation (x :: l) (insert_sorted x l).
Proof.
  induction l as [|z l IH]; cbn [insert_sorted]; [reflexivity|]. destruct (Nat.leb x z); [reflexivity|].
  rewrite perm_swap. apply perm_skip. exact IH.
Qed.
Lemma sort_ids_perm l : Permutation l (sort_ids l).
Proof.
  unfold sort_ids. induction l as [|x l IH]; cbn [fold_right]; [reflexivity|]. rewrite <- insert_sorted_perm. apply perm_skip. exact IH.
Qed.
Lemma sort_ids_In l y : In y (sort_ids l) <-> In y l.
Proof. split; apply Permutation_in; [symmetry|]; apply sort_ids_perm. Qed.
Lemma sort_ids_NoDup l : NoDup l -> NoDup (sort_ids l).
Proof. apply Permutation_NoDup, sort_ids_perm. Qed.
Lemma insert_sorted_sorted x l : Sorted le l -> Sorted le (insert_sorted x l).
Proof.
  induction l as [|z l IH]; intros Hs; cbn [insert_sorted]; [repeat constructor|].
  destruct (Nat.leb_spec x z).
  - constructor; auto.
  - inversion Hs as [|? ? Hs' Hhd]; subst. constructor; [apply IH; exact Hs'|].
    destruct l as [|w l]; cbn [insert_sorted]; [constructor; lia|].
    destruct (Nat.leb_spec x w); constructor; try lia. inversion Hhd; subst. lia.
Qed.
Lemma sort_ids_sorted l : Sorted le (sort_ids l).
Proof. unfold sort_ids. induction l as [|x l IH]; cbn [fold_right]; [constructor|]. apply insert_sorted_sorted. exact IH. Qed.

Lemma parsed_of_tokens_inv ts p : parsed_of_tokens ts = Done p ->
  parse ts = Ok (pf_form p) [] /\ pf_vars p = sort_ids (dedup (tok_vars ts)) /\ pf_free p = free_of (pf_vars p) (pf_form p).
Proof.
  unfold parsed_of_tokens. destruct (parse ts) as [f r| |] eqn:Hpar; try discriminate.
  destruct (parse_f_inv _ ts f r Hpar) as [-> _]. intros H. injection H as <-. auto.
Qed.

Theorem pf_vars_spec ts p : parsed_of_tokens ts = Done p ->
  NoDup (pf_vars p) /\ Sorted le (pf_vars p) /\ (forall x, In x (pf_vars p) <-> In x (tok_vars ts)) /\
  pf_free p = filter (var_is_free (pf_form p)) (pf_vars p) /\ NoDup (pf_free p).
Proof.
  intros H. destruct (parsed_of_tokens_inv ts p H) as (_ & Hv & Hf). rewrite Hf. unfold free_of. rewrite Hv.
  assert (Hnd : NoDup (sort_ids (dedup (tok_vars ts)))) by (apply sort_ids_NoDup, dedup_acc_NoDup).
  split; [exact Hnd|]. split; [apply sort_ids_sorted|]. split; [|split; [reflexivity|apply NoDup_filter; exact Hnd]].
  intros x. rewrite sort_ids_In. unfold dedup. rewrite dedup_acc_In. cbn [In]. tauto.
Qed.

Lemma parsed_form_vars ts p : parsed_of_tokens ts = Done p ->
  nofsub (pf_form p) /\ forall x, fv (pf_form p) x = true -> In x (pf_vars p).
Proof.
  intros H. destruct (parsed_of_tokens_inv ts p H) as (Hpar & _). destruct (parse_vars ts _ _ Hpar) as [Hns Hfv].
  split; [exact Hns|]. intros x Hx. apply (pf_vars_spec ts p H). auto.
Qed.

Lemma parsed_formula_inv uc ord txt p : parsed_formula uc ord txt = Done p <->
  exists ts, tokenize uc ord txt = Some ts /\ parsed_of_tokens ts = Done p.
Proof.
  unfold parsed_formula. destruct (tokenize uc ord txt) as [ts|].
  - split; [eauto|]. intros (ts' & E & H). injection E as <-. exact H.
  - split; [discriminate|]. intros (ts' & E & _). discriminate.
Qed.

Lemma eval_parsed ts p n b : parsed_of_tokens ts = Done p -> eval_f n (pf_form p) = Some b ->
  robdd b /\ incl (support b) (pf_free p).
Proof.
  intros Hp He. destruct (parsed_form_vars ts p Hp) as [Hns Hfv].
  split; [apply (sound n _ b (nofsub_wf _ Hns) He)|]. intros x Hx.
  pose proof (support_fv n _ b Hns He x Hx) as Hx'. destruct (pf_vars_spec ts p Hp) as (_ & _ & _ & -> & _).
  apply filter_In. split; [apply Hfv, Hx'|apply fv_le_free; auto].
Qed.

(** what is done to the answer before it is printed: retain (-c), then model (-m).  [retain b TAny] is [b],
    so the test for [TAny] in [printed_diagram] makes no difference *)
Definition post (o : options) (b : bdd) : bdd :=
  let b1 := retain b (o_retain o) in if o_model o then bmodel b1 else b1.

Lemma printed_diagram_spec fuel o p :
  printed_diagram fuel o p = match eval_f fuel (pf_form p) with Some b => Done (post o b) | None => Diverged end.
Proof. unfold printed_diagram, post. destruct (eval_f fuel (pf_form p)); [|reflexivity]. destruct (o_retain o); reflexivity. Qed.

Lemma post_shape o b : robdd b -> robdd (post o b) /\ incl (support (post o b)) (support b).
Proof.
  intros Hb. unfold post. destruct (C20_shape b (o_retain o) Hb) as [Hr Hi]. destruct (o_model o); [|auto].
  split; [apply (shp_bmodel _ 0 Hr)|]. eapply incl_tran; [apply (bmodel_shape _ 0 Hr)|exact Hi].
Qed.

Lemma printed_rows uc ord txt p fuel o b : parsed_formula uc ord txt = Done p -> eval_f fuel (pf_form p) = Some b ->
  exists rows, tt_rows (pf_free p) (post o b) (all_any (pf_free p)) = Some rows /\
    forall s, exists r, In r rows /\ matches (pf_free p) s (fst r) /\ snd r = beval s (post o b) /\
                        forall r', In r' rows -> matches (pf_free p) s (fst r') -> r' = r.
Proof.
  intros Hp He. apply parsed_formula_inv in Hp. destruct Hp as (ts & _ & Hp).
  destruct (eval_parsed ts p fuel b Hp He) as [Hrb Hsb]. destruct (post_shape o b Hrb) as [[Ho _] Hsd].
  apply tt_rows_all; [apply (pf_vars_spec ts p Hp)|exact Ho|eapply incl_tran; eauto].
Qed.

(** the first step of [cli]: no -o file is the empty ordering *)
Definition ordering_of (uc : N -> ucls) (ordfile : option (list N)) : outcome (list (name * nat)) :=
  match ordfile with None => Done [] | Some otxt => ordering_of_file uc otxt end.

Lemma number_from_ids : forall ws k, map snd (number_from k ws) = seq k (length ws).
Proof. induction ws as [|w ws IH]; intros k; cbn [number_from map snd length seq]; [reflexivity|]. rewrite IH. reflexivity. Qed.
Lemma ordering_of_distinct uc ordfile ord : ordering_of uc ordfile = Done ord -> NoDup (map snd ord).
Proof.
  destruct ordfile as [t|]; cbn [ordering_of]; [|intros H; injection H as <-; constructor].
  unfold ordering_of_file. destruct (tokenize uc [] t); [|discriminate]. intros H. injection H as <-.
  rewrite number_from_ids. apply seq_NoDup.
Qed.

(** what [cli] prints from the unfiltered rows: header, rows passing the filter, -v lines (the true rows), -r list, diagram *)
Definition output_of (names : idmap) (o : options) (p : parsed) (b : bdd) (rows : list row) : output :=
  mkOutput (map (name_of names) (pf_free p)) (filter (fun r : row => agrees (o_filter o) (snd r)) rows)
           (map fst (filter (fun r : row => snd r) rows)) (map (name_of names) (pf_vars p)) (post o b).

Lemma cli_eq fuel uc o ordfile txt : cli fuel uc o ordfile txt =
  match ordering_of uc ordfile with
  | Done ord =>
      match parsed_formula uc ord txt with
      | Done p =>
          match eval_f fuel (pf_form p) with
          | Some b =>
              match tt_rows (pf_free p) (post o b) (all_any (pf_free p)) with
              | Some rows => CliOk (output_of (name_table uc ord txt) o p b rows)
              | None => CliPanic
              end
          | None => CliDiverged
          end
      | _ => CliError
      end
  | _ => CliError
  end.
Proof.
  unfold cli. fold (ordering_of uc ordfile). destruct (ordering_of uc ordfile) as [ord| |]; try reflexivity.
  destruct (parsed_formula uc ord txt) as [p| |]; try reflexivity.
  rewrite printed_diagram_spec. destruct (eval_f fuel (pf_form p)) as [b|]; [|reflexivity].
  cbv zeta. rewrite C10_filter, C10_vars. destruct (tt_rows _ _ _); reflexivity.
Qed.

Lemma cli_ok_intro fuel uc o ordfile txt ord p b :
  ordering_of uc ordfile = Done ord -> parsed_formula uc ord txt = Done p -> eval_f fuel (pf_form p) = Some b ->
  exists out, cli fuel uc o ordfile txt = CliOk out.
Proof.
  intros Ho Hp He. rewrite cli_eq, Ho, Hp, He. destruct (printed_rows uc ord txt p fuel o b Hp He) as (rows & -> & _). eexists; reflexivity.
Qed.

Lemma cli_ok_inv fuel uc o ordfile txt out : cli fuel uc o ordfile txt = CliOk out ->
  exists ord p b rows,
    ordering_of uc ordfile = Done ord /\ parsed_formula uc ord txt = Done p /\ eval_f fuel (pf_form p) = Some b /\
    tt_rows (pf_free p) (post o b) (all_any (pf_free p)) = Some rows /\ out = output_of (name_table uc ord txt) o p b rows.
Proof.
  rewrite cli_eq. destruct (ordering_of uc ordfile) as [ord| |]; try discriminate.
  destruct (parsed_formula uc ord txt) as [p| |] eqn:Hp; try discriminate.
  destruct (eval_f fuel (pf_form p)) as [b|] eqn:He; [|discriminate].
  destruct (tt_rows _ _ _) as [rows|] eqn:Hrows; [|discriminate].
  intros H. injection H as <-. exists ord, p, b, rows. repeat split; assumption.
Qed.

Theorem C12_no_panic fuel uc o ordfile txt : cli fuel uc o ordfile txt <> CliPanic.
Proof.
  rewrite cli_eq. destruct (ordering_of uc ordfile) as [ord| |]; try discriminate.
  destruct (parsed_formula uc ord txt) as [p| |] eqn:Hp; try discriminate.
  destruct (eval_f fuel (pf_form p)) as [b|] eqn:He; [|discriminate].
  destruct (printed_rows uc ord txt p fuel o b Hp He) as (rows & -> & _). discriminate.
Qed.

Theorem C10_cli_table fuel uc o ordfile txt out : cli fuel uc o ordfile txt = CliOk out ->
  exists FV rows, NoDup FV /\ tt_rows FV (out_diagram out) (all_any FV) = Some rows /\
    out_rows out = filter (fun r : row => agrees (o_filter o) (snd r)) rows /\
    out_true out = map fst (filter (fun r : row => snd r) rows) /\
    length (out_header out) = length FV /\
    forall s, exists r, In r rows /\ matches FV s (fst r) /\ snd r = beval s (out_diagram out) /\
                        forall r', In r' rows -> matches FV s (fst r') -> r' = r.
Proof.
  intros H. destruct (cli_ok_inv _ _ _ _ _ _ H) as (ord & p & b & rows & _ & Hp & He & Hrows & ->).
  destruct (printed_rows uc ord txt p fuel o b Hp He) as (rows' & Hrows' & Hpart). rewrite Hrows in Hrows'. injection Hrows' as <-.
  apply parsed_formula_inv in Hp. destruct Hp as (ts & _ & Hp). exists (pf_free p), rows. cbn [output_of out_diagram out_rows out_true out_header].
  split; [apply (pf_vars_spec ts p Hp)|]. split; [exact Hrows|]. split; [reflexivity|]. split; [reflexivity|].
  split; [apply map_length|exact Hpart].
Qed.

Theorem C10_cli_header fuel uc o ordfile txt out : cli fuel uc o ordfile txt = CliOk out ->
  exists ord p,
    (match ordfile with None => ord = [] | Some otxt => ordering_of_file uc otxt = Done ord end) /\
    parsed_formula uc ord txt = Done p /\
    let names := name_table uc ord txt in
    out_header out = map (name_of names) (pf_free p) /\
    out_order out = map (name_of names) (pf_vars p) /\
    pf_free p = filter (var_is_free (pf_form p)) (pf_vars p) /\
    Sorted le (pf_vars p) /\ NoDup (pf_vars p) /\ NoDup (pf_free p).
Proof.
  intros H. destruct (cli_ok_inv _ _ _ _ _ _ H) as (ord & p & b & rows & Ho & Hp & _ & _ & ->).
  exists ord, p. split; [destruct ordfile; [exact Ho|injection Ho as <-; reflexivity]|]. split; [exact Hp|].
  apply parsed_formula_inv in Hp. destruct Hp as (ts & _ & Hp).
  destruct (pf_vars_spec ts p Hp) as (Hnd & Hs & _ & Hfree & Hndf). cbn. auto 6.
Qed.
Print Assumptions C10_cli_header.

Theorem C01_text uc ord txt p n b :
  parsed_formula uc ord txt = Done p -> eval_f n (pf_form p) = Some b ->
  exists ts, tokenize uc ord txt = Some ts /\ G_formula ts (pf_form p) /\      (* the tree is the grammar's (C08) *)
    Den empty (pf_form p) (bden b) /\ robdd b /\                               (* the answer is its meaning (C01), canonical (C02) *)
    (forall x, In x (support b) -> In x (pf_free p)) /\                        (* and mentions free variables only (C09) *)
    (b = T <-> forall s, beval s b = true) /\ (b = F <-> forall s, beval s b = false).
Proof.
  intros Hp He. apply parsed_formula_inv in Hp. destruct Hp as (ts & Ht & Hp). exists ts. split; [exact Ht|].
  destruct (parsed_of_tokens_inv ts p Hp) as (Hpar & _). destruct (parsed_form_vars ts p Hp) as [Hns _].
  destruct (eval_parsed ts p n b Hp He) as [Hrb Hsb].
  split; [exact (proj1 (C08_text uc ord txt ts _ Ht) Hpar)|].
  split; [apply (sound n _ b (nofsub_wf _ Hns) He)|]. split; [exact Hrb|]. split; [exact Hsb|].
  split; (split; [intros ->; reflexivity|]); [apply (robdd_const _ true)|apply (robdd_const _ false)]; exact Hrb.
Qed.
