(** C12 / C06 at the level of the command line: a text whose fixed-point binders all bind a name that is positive in its own
    body (posfix, in particular every text without lfp / gfp) is answered - with enough fuel the pipeline model neither
    diverges nor fails in a printer; it prints or reports a tokenizer / parser / ordering-file error, and which of the two
    does not depend on the fuel. *)
From Coq Require Import List NArith.
Import ListNotations.
From Rsbdd Require Import Lang.Ast Lang.Eval Lang.EvalComplete Lang.Free Lang.Mono Lang.FixNested.
From Rsbdd Require Import Syntax.Lexer Cli.Pipeline Cli.PipelineFacts.

(** the tree [cli] evaluates, if ordering file and text are read without error; the outer match is [ordering_of] unfolded *)
Definition cli_form (uc : N -> ucls) (ordfile : option (list N)) (txt : list N) : option form :=
  match (match ordfile with None => Done [] | Some otxt => ordering_of_file uc otxt end) with
  | Done ord => match parsed_formula uc ord txt with Done p => Some (pf_form p) | _ => None end
  | _ => None
  end.

Theorem cli_error_iff fuel uc o ordfile txt : cli fuel uc o ordfile txt = CliError <-> cli_form uc ordfile txt = None.
Proof.
  rewrite cli_eq. unfold cli_form. fold (ordering_of uc ordfile).
  destruct (ordering_of uc ordfile) as [ord| |]; try tauto.
  destruct (parsed_formula uc ord txt) as [p| |] eqn:Hp; try tauto.
  destruct (eval_f fuel (pf_form p)) as [b|] eqn:He; [|split; discriminate].
  destruct (printed_rows uc ord txt p fuel o b Hp He) as (rows & -> & _). split; discriminate.
Qed.

Theorem cli_answers uc o ordfile txt f : cli_form uc ordfile txt = Some f -> posfix f = true ->
  exists fuel0, forall fuel, fuel0 <= fuel -> exists out, cli fuel uc o ordfile txt = CliOk out.
Proof.
  intros Hf Hpf. unfold cli_form in Hf. fold (ordering_of uc ordfile) in Hf.
  destruct (ordering_of uc ordfile) as [ord| |] eqn:Ho; try discriminate.
  destruct (parsed_formula uc ord txt) as [p| |] eqn:Hp; try discriminate. injection Hf as <-.
  assert (Hns : nofsub (pf_form p)).
  { apply parsed_formula_inv in Hp. destruct Hp as (ts & _ & Hp). apply (parsed_form_vars ts p Hp). }
  destruct (posfix_evaluates (pf_form p) Hns Hpf) as (n & b & He & _).
  exists n. intros fuel Hle. exact (cli_ok_intro fuel uc o ordfile txt ord p b Ho Hp (eval_mono_le n fuel _ b He Hle)).
Qed.
Print Assumptions cli_error_iff. Print Assumptions cli_answers.
