(** C11: the list of names printed by -r, one per line, read as an ordering file, is that list again. *)
From Coq Require Import List NArith.
Import ListNotations.
From Rsbdd Require Import Syntax.Lexer Syntax.LexSpec Syntax.LexUnique Syntax.Tokenize.
From Rsbdd Require Import Cli.Pipeline Cli.PipelineFacts Cli.Ordering Cli.RoundTrip.
Local Open Scope N_scope.

Section Export.
  Variable uc : N -> ucls.
  Notation is_digit := (is_digit uc).
  Notation is_word := (is_word uc).
  Notation lexeme := (lexeme uc).
  Notation Lexes := (Lexes uc).

  (** an identifier lexeme: a word character that is not a digit, followed by word characters *)
  Definition ident_word (w : list N) : Prop :=
    match w with c :: r => is_word c = true /\ is_digit c = false /\ all_b is_word r | [] => False end.

  Lemma Lexes_idents l ts : Lexes l ts -> forall w, In (RIdent w) ts -> ident_word w.
  Proof.
    induction 1 as [|w t r ts Hl Hm _ IH|w r ts _ _ _ IH|c r ts _ _ _ IH]; intros w0 Hin; auto; [destruct Hin|].
    destruct Hin as [E|Hin]; [|apply IH; exact Hin]. subst t.
    inversion Hl as [| | |c0 w1 Wc Dc Ww]; subst. cbn. auto.
  Qed.

  (** the exported text: every name followed by a newline *)
  Fixpoint export (ws : list (list N)) : list N := match ws with [] => [] | w :: r => w ++ 10 :: export r end.

  (** an identifier word followed by a newline is a maximal lexeme (a longer one would be a run of word characters through
      the newline), and nothing starts at a newline *)
  Lemma export_lexes ws : Forall ident_word ws -> Lexes (export ws) (map RIdent ws).
  Proof.
    induction 1 as [|w ws Hw _ IH]; cbn [export map]; [constructor|].
    destruct w as [|c w]; [destruct Hw|]. destruct Hw as (Wc & Dc & Ww). apply Lx_tok.
    - apply L_ident; auto.
    - apply (run_maximal uc (fun c => is_word c = true)); [intros H; discriminate H|].
      intros w0 t' Hl. apply lexeme_inv in Hl. rewrite (first_kind_ident uc c Wc Dc) in Hl. exact (proj2 Hl).
    - apply Lx_skip; [exact (no_lexeme_at uc 10 _ eq_refl)|apply (no_comment_at 10); discriminate|exact IH].
  Qed.
  Theorem export_lex_raw ws : Forall ident_word ws -> lex_raw uc (export ws) = map RIdent ws.
  Proof. intros H. symmetry. apply (proj1 (C08_lex_unique uc (export ws) (map RIdent ws))). apply export_lexes. exact H. Qed.
End Export.

Local Close Scope N_scope.

Lemma ident_names_In rs w : In w (ident_names rs) -> In (RIdent w) rs /\ assoc w keywords = None.
Proof.
  induction rs as [|t rs IH]; intros H; [destruct H|]. cbn [ident_names In] in *.
  destruct t as [s|ds|w'|w']; try (destruct (IH H); auto; fail).
  destruct (assoc w' keywords) eqn:Ek; [destruct (IH H); auto|]. destruct H as [<-|H]; [auto|destruct (IH H); auto].
Qed.
Lemma ident_names_map_RIdent ws : (forall w, In w ws -> assoc w keywords = None) -> ident_names (map RIdent ws) = ws.
Proof.
  induction ws as [|w ws IH]; intros H; cbn [map ident_names]; [reflexivity|].
  rewrite (H w (or_introl eq_refl)). f_equal. apply IH. intros u Hu. apply H. right. exact Hu.
Qed.
Lemma classify_idents : forall ws m c, exists ts, classify m c (map RIdent ws) = Some ts.
Proof.
  induction ws as [|w ws IH]; intros m c; cbn [map classify]; [eauto|].
  destruct (assoc w keywords); [destruct (IH m c) as (ts & ->); cbn; eauto|].
  destruct (assoc w m); [destruct (IH m c) as (ts & ->); cbn; eauto|destruct (IH ((w, c) :: m) (S c)) as (ts & ->); cbn; eauto].
Qed.
Lemma dedup_names_NoDup_id : forall ws seen, NoDup ws -> (forall w, In w ws -> ~ In w seen) -> dedup_names seen ws = ws.
Proof.
  induction ws as [|w ws IH]; intros seen Hnd Hs; cbn [dedup_names]; [reflexivity|]. inversion Hnd as [|? ? Hw Hnd']; subst.
  assert (E : existsb (name_eqb w) seen = false).
  { apply Bool.not_true_is_false. intros Ex. apply (OpsFacts.existsb_eqb name_eqb name_eqb_spec) in Ex. exact (Hs w (or_introl eq_refl) Ex). }
  rewrite E. f_equal. apply IH; [exact Hnd'|]. intros u Hu [->|Hin]; [contradiction|]. exact (Hs u (or_intror Hu) Hin).
Qed.

Theorem export_ordering uc ws : Forall (ident_word uc) ws -> NoDup ws -> (forall w, In w ws -> assoc w keywords = None) ->
  ordering_of_file uc (export ws) = Done (number_from 0 ws).
Proof.
  intros Hw Hnd Hk. unfold ordering_of_file, tokenize. cbn [preload fold_left].
  rewrite (export_lex_raw uc ws Hw). destruct (classify_idents ws [] 0) as (ts & ->).
  rewrite (ident_names_map_RIdent ws Hk), (dedup_names_NoDup_id ws [] Hnd); [reflexivity|intros w _ []].
Qed.

Lemma order_names_spec fuel uc o ordfile txt out : cli fuel uc o ordfile txt = CliOk out ->
  NoDup (out_order out) /\ forall w, In w (out_order out) -> In w (ident_names (lex_raw uc txt)).
Proof.
  intros H. destruct (cli_ok_inv _ _ _ _ _ _ H) as (ord & p & b & rows & Ho & Hp & _ & _ & ->). cbn [output_of out_order].
  apply parsed_formula_inv in Hp. destruct Hp as (ts & Ht & Hp).
  exact (var_names_spec uc ord txt ts p (ordering_of_distinct _ _ _ Ho) Ht Hp).
Qed.

Lemma exported_order_reads fuel uc o ordfile txt out : cli fuel uc o ordfile txt = CliOk out ->
  ordering_of_file uc (export (out_order out)) = Done (number_from 0 (out_order out)).
Proof.
  intros H. destruct (order_names_spec fuel uc o ordfile txt out H) as [Hnd Hin].
  apply export_ordering; [|exact Hnd|].
  - rewrite Forall_forall. intros w Hw. apply (Lexes_idents uc txt (lex_raw uc txt) (C08_lex uc txt)), ident_names_In, Hin, Hw.
  - intros w Hw. apply (ident_names_In (lex_raw uc txt)), Hin, Hw.
Qed.

Theorem C11_roundtrip_export fuel fuel' uc o ordfile1 txt out1 out2 :
  cli fuel uc o ordfile1 txt = CliOk out1 ->
  cli fuel' uc o (Some (export (out_order out1))) txt = CliOk out2 ->
  out_header out2 = out_header out1 /\ out_rows out2 = out_rows out1 /\ out_true out2 = out_true out1 /\ out_order out2 = out_order out1.
Proof.
  intros H1 H2.
  exact (C11_roundtrip fuel fuel' uc o ordfile1 txt out1 _ out2 H1 (exported_order_reads fuel uc o ordfile1 txt out1 H1) H2).
Qed.
Print Assumptions C11_roundtrip_export.
