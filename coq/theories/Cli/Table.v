(** C10: the rows printed by print_truth_table_recursive partition the assignment space. *)
From Coq Require Import List Lia PeanoNat.
Import ListNotations.
From Rsbdd Require Import Core.Bdd.

(** a cell of a printed row: True / False / Any *)
Inductive cell := TT | TF | TA.
Notation tte := cell.
Definition row := (list tte * bool)%type.

Fixpoint index_of (v : nat) (l : list nat) : option nat :=
  match l with [] => None | x :: t => if Nat.eqb x v then Some 0 else option_map S (index_of v t) end.

Fixpoint set_nth {A} (i : nat) (x : A) (l : list A) : list A :=
  match l, i with [], _ => [] | _ :: t, 0 => x :: t | y :: t, S j => y :: set_nth j x t end.

(* model of print_truth_table_recursive with filter Any; None = the panic of to_free_index *)
Fixpoint tt_rows (FV : list nat) (d : bdd) (vals : list tte) : option (list row) :=
  match d with
  | F => Some [(vals, false)] | T => Some [(vals, true)]
  | Nd t v f =>
      match index_of v FV with
      | None => None
      | Some i =>
          match tt_rows FV f (set_nth i TF vals), tt_rows FV t (set_nth i TT vals) with
          | Some r0, Some r1 => Some (r0 ++ r1) | _, _ => None end
      end
  end.

Definition cell_ok (s : asg) (v : nat) (e : tte) : Prop :=
  match e with TA => True | TT => s v = true | TF => s v = false end.
Definition matches (FV : list nat) (s : asg) (vals : list tte) : Prop := Forall2 (cell_ok s) FV vals.

Lemma index_of_lt v l i : index_of v l = Some i -> i < length l /\ nth_error l i = Some v.
Proof.
  revert i; induction l as [|x l IH]; intros i H; simpl in H; [discriminate|].
  destruct (Nat.eqb_spec x v).
  - inversion H; subst. simpl. split; auto. lia.
  - destruct (index_of v l) eqn:E; simpl in H; [|discriminate]. inversion H; subst.
    destruct (IH n0 eq_refl). simpl. split; auto. lia.
Qed.

Lemma index_of_some v l : In v l -> exists i, index_of v l = Some i.
Proof.
  induction l as [|x l IH]; intros H; [destruct H|]. simpl.
  destruct (Nat.eqb_spec x v); eauto. destruct H as [->|H]; [congruence|].
  destruct (IH H) as (i & ->). simpl. eauto.
Qed.

Lemma matches_set FV s vals : matches FV s vals -> forall i v e,
  nth_error FV i = Some v -> cell_ok s v e -> matches FV s (set_nth i e vals).
Proof.
  unfold matches. induction 1 as [|x y FV vals Hc Hr IH]; intros [|i] v e Hi He; simpl in *; try discriminate; constructor; eauto.
  inversion Hi; subst. exact He.
Qed.

(* the invariant of the recursion: below a test of v the diagram is ordered from v+1, and the columns of the variables from there on are still Any *)
Definition any_from (FV : list nat) (lo : nat) (vals : list tte) :=
  forall i v, nth_error FV i = Some v -> lo <= v -> nth_error vals i = Some TA.

Lemma set_nth_len {A} i (x : A) l : length (set_nth i x l) = length l.
Proof. revert i; induction l; intros [|i]; simpl; auto. Qed.
Lemma set_nth_other {A} i j (x : A) l : i <> j -> nth_error (set_nth i x l) j = nth_error l j.
Proof. revert i j; induction l; intros [|i] [|j] H; simpl; auto; try congruence. Qed.
Lemma set_nth_id {A} i (x : A) l : nth_error l i = Some x -> set_nth i x l = l.
Proof. revert i; induction l; intros [|i] H; simpl in *; auto; try discriminate; [congruence|f_equal; auto]. Qed.

Lemma NoDup_nth_inj {A} (l : list A) i j x : NoDup l -> nth_error l i = Some x -> nth_error l j = Some x -> i = j.
Proof.
  intros H Hi Hj. rewrite NoDup_nth_error in H. apply H; [apply nth_error_Some; congruence|congruence].
Qed.

Lemma set_nth_same {A} i (x : A) l : i < length l -> nth_error (set_nth i x l) i = Some x.
Proof. revert i; induction l; intros [|i] H; simpl in *; auto; try lia. apply IHl; lia. Qed.

Lemma matches_cell FV s vals i v e : nth_error FV i = Some v -> nth_error vals i = Some e -> matches FV s vals -> cell_ok s v e.
Proof.
  intros Hi Hv Hm. revert i Hi Hv. induction Hm as [|x y FV' vals' Hc Hr IH]; intros [|i] Hi Hv; simpl in *; try discriminate.
  - inversion Hi; inversion Hv; subst; auto.
  - eapply IH; eauto.
Qed.

Definition extends (vals : list cell) (r : row) : Prop :=
  (forall j e, nth_error vals j = Some e -> e <> TA -> nth_error (fst r) j = Some e) /\ length (fst r) = length vals.

Lemma extends_set i e vals r : nth_error vals i = Some TA -> extends (set_nth i e vals) r -> extends vals r.
Proof.
  intros HA [Ha Hb]. split; [|rewrite Hb; apply set_nth_len].
  intros j e' Hj Hne. apply Ha; auto. rewrite set_nth_other; auto. intros ->. congruence.
Qed.
Lemma extends_cell FV s i v e vals r : nth_error FV i = Some v -> i < length vals -> e <> TA ->
  extends (set_nth i e vals) r -> matches FV s (fst r) -> cell_ok s v e.
Proof.
  intros Hi Hlt Hne [Ha _] Hm. apply (matches_cell FV s (fst r) i); auto.
  apply Ha; auto. apply set_nth_same, Hlt.
Qed.

(** the three conjuncts: the recursion does not panic; every row keeps the cells of [vals] that are not Any and its length
    ([extends vals r], unfolded); every assignment matching [vals] matches exactly one row, which carries its value *)
Theorem tt_partition FV : NoDup FV -> forall d lo vals,
  ord lo d -> (forall v, In v (support d) -> In v FV) ->
  length vals = length FV -> any_from FV lo vals ->
  exists rows, tt_rows FV d vals = Some rows /\
    (forall r, In r rows -> (forall j e, nth_error vals j = Some e -> e <> TA -> nth_error (fst r) j = Some e) /\ length (fst r) = length vals) /\
    forall s, matches FV s vals ->
      exists r, In r rows /\ matches FV s (fst r) /\ snd r = beval s d /\
        forall r', In r' rows -> matches FV s (fst r') -> r' = r.
Proof.
  intros _. induction d as [| |t IHt v f IHf]; intros lo vals Ho Hsup Hlen Hany.
  1, 2: eexists; split; [reflexivity|]; split; [intros r [<-|[]]; simpl; auto|];
    intros s Hm; eexists; split; [left; reflexivity|]; split; [exact Hm|]; split; [reflexivity|];
    intros r' [<-|[]] _; reflexivity.
  destruct Ho as (Hv & Hot & Hof).
  destruct (index_of_some v FV) as (i & Hi); [apply Hsup; simpl; auto|].
  destruct (index_of_lt _ _ _ Hi) as [Hilt Hnth].
  assert (HvalA : nth_error vals i = Some TA) by (eapply Hany; eauto).
  assert (Hany' : forall e, any_from FV (S v) (set_nth i e vals)).
  { intros e j w Hj Hw. rewrite set_nth_other; [eapply Hany; eauto; lia|].
    intros ->. rewrite Hnth in Hj. inversion Hj; subst. lia. }
  destruct (IHf (S v) (set_nth i TF vals)) as (r0 & Hr0 & E0 & P0); auto.
  { intros w Hw. apply Hsup. simpl. right. apply in_or_app. auto. }
  { now rewrite set_nth_len. }
  destruct (IHt (S v) (set_nth i TT vals)) as (r1 & Hr1 & E1 & P1); auto.
  { intros w Hw. apply Hsup. simpl. right. apply in_or_app. auto. }
  { now rewrite set_nth_len. }
  exists (r0 ++ r1). split; [simpl; rewrite Hi, Hr0, Hr1; reflexivity|]. split.
  { intros r Hin. apply in_app_or in Hin.
    destruct Hin as [Hin|Hin]; [apply (extends_set i TF), E0|apply (extends_set i TT), E1]; auto. }
  intros s Hm. cbn [beval].
  (* the rows of a branch all carry its value of v in column i: none matches an assignment that takes the other branch *)
  assert (Hno : forall e rows r', (forall r, In r rows -> extends (set_nth i e vals) r) -> e <> TA ->
                  ~ cell_ok s v e -> In r' rows -> ~ matches FV s (fst r')).
  { intros e rows r' He Hne Hc Hin Hm'. apply Hc. apply (extends_cell FV s i v e vals r'); auto. lia. }
  destruct (s v) eqn:Esv.
  - destruct (P1 s) as (r & Hin & Hmr & Hres & Huniq); [apply matches_set with (v := v); auto|].
    exists r. split; [apply in_or_app; auto|]. split; auto. split; auto.
    intros r' Hin' Hm'. apply in_app_or in Hin'. destruct Hin' as [Hin'|Hin']; [|apply Huniq; auto].
    destruct (Hno TF r0 r' E0); auto; simpl; congruence.
  - destruct (P0 s) as (r & Hin & Hmr & Hres & Huniq); [apply matches_set with (v := v); auto|].
    exists r. split; [apply in_or_app; auto|]. split; auto. split; auto.
    intros r' Hin' Hm'. apply in_app_or in Hin'. destruct Hin' as [Hin'|Hin']; [apply Huniq; auto|].
    destruct (Hno TT r1 r' E1); auto; simpl; congruence.
Qed.
Print Assumptions tt_partition.

(** the table printed from the root: every column is still Any, so the rows partition the whole assignment space *)
Lemma tt_rows_all FV d : NoDup FV -> ord 0 d -> incl (support d) FV ->
  exists rows, tt_rows FV d (map (fun _ => TA) FV) = Some rows /\
    forall s, exists r, In r rows /\ matches FV s (fst r) /\ snd r = beval s d /\
                        forall r', In r' rows -> matches FV s (fst r') -> r' = r.
Proof.
  intros Hnd Ho Hs.
  destruct (tt_partition FV Hnd d 0 (map (fun _ => TA) FV) Ho Hs) as (rows & Hrows & _ & Hpart).
  - apply map_length.
  - intros i v Hi _. rewrite nth_error_map, Hi. reflexivity.
  - exists rows. split; [exact Hrows|]. intros s. apply Hpart.
    unfold matches. clear. induction FV; cbn [map]; constructor; auto. exact I.
Qed.
