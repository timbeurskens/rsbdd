(** C11: exporting the variable order with -r and feeding it back with -o reproduces the identical table.
    The second run numbers the variables 0, 1, ... in the exported order, which is order-isomorphic to the first run's ids
    on the variables of the text; hence the evaluated diagram is the first one renamed (RankIso), and retain, model and
    the rows of the table commute with such a renaming. *)
From Coq Require Import List Bool Lia PeanoNat.
Import ListNotations.
From Rsbdd Require Import Core.Bdd Core.Ops Core.OpsFacts Core.Cube Core.Retain.
From Rsbdd Require Import Lang.Ast Lang.FreeGen Lang.Rename Lang.RankIso.
From Rsbdd Require Import Syntax.Tokenize.
From Rsbdd Require Import Cli.Table Cli.TableFilter Cli.Pipeline Cli.PipelineFacts Cli.Ordering.

(** the hypothesis on the renaming in [RankIso.C11_rank_iso_on], which spells it out *)
Definition mono_on (p : nat -> nat) (l : list nat) : Prop := forall x y, In x l -> In y l -> x < y -> p x < p y.
Lemma mono_on_incl p l l' : incl l' l -> mono_on p l -> mono_on p l'.
Proof. intros Hi Hm x y Hx Hy. apply Hm; apply Hi; assumption. Qed.

Section Renaming.
  Variable p q : nat -> nat.
  Hypothesis q_p : forall x, q (p x) = x.

  Lemma bmap_is_const a : is_const (bmap p a) = is_const a. Proof. destruct a; reflexivity. Qed.
  Lemma bmap_is_true a : is_true (bmap p a) = is_true a. Proof. destruct a; reflexivity. Qed.
  Lemma bmap_eqb a b : bdd_eqb (bmap p a) (bmap p b) = bdd_eqb a b.
  Proof.
    destruct (bdd_eqb_spec a b) as [->|NE]; [apply bdd_eqb_refl|].
    destruct (bdd_eqb_spec (bmap p a) (bmap p b)) as [E|_]; [|reflexivity]. exfalso. apply NE. exact (bmap_inj' p q q_p a b E).
  Qed.
  Lemma bmap_mk x v y : bmap p (mk x v y) = mk (bmap p x) (p v) (bmap p y).
  Proof. unfold mk. rewrite bmap_eqb. destruct (bdd_eqb x y); reflexivity. Qed.

  Lemma retain_go_bmap filt : forall d, retain_go filt (bmap p d) = bmap p (retain_go filt d).
  Proof.
    induction d as [| |l IHl v r IHr]; cbn [bmap retain_go]; auto.
    rewrite IHl, IHr, !bmap_is_const, !bmap_is_true, <- bmap_mk. set (l' := retain_go filt l). set (r' := retain_go filt r).
    destruct (is_const l' && negb (is_const r')), (is_const r' && negb (is_const l')),
      (negb (Bool.eqb (is_true l') filt)), (negb (Bool.eqb (is_true r') filt)); reflexivity.
  Qed.
  Lemma retain_bmap d f : retain (bmap p d) f = bmap p (retain d f).
  Proof. destruct f; cbn [retain]; auto; apply retain_go_bmap. Qed.

  Lemma bmodel_bmap : forall d lo, ord lo d -> mono_on p (support d) -> bmodel (bmap p d) = bmap p (bmodel d).
  Proof.
    induction d as [| |t IHt v f IHf]; intros lo Ho Hm; [reflexivity..|].
    assert (Ho' : ord 0 (bmap p (Nd t v f))) by (apply (ord_bmap_on p _ lo 0 Ho Hm); intros; apply Nat.le_0_l).
    cbn [bmap support] in *. rewrite (bmodel_Nd _ _ _ 0 Ho'), (bmodel_Nd t v f lo Ho). destruct Ho as (_ & Ht & Hf).
    rewrite (IHt (S v) Ht), (IHf (S v) Hf) by (apply (mono_on_incl p _ _) with (2 := Hm); intros x Hx; right; apply in_or_app; auto).
    rewrite !(bmap_eqb _ F). destruct (bdd_eqb (bmodel t) F), (bdd_eqb (bmodel f) F); reflexivity.
  Qed.

  Lemma post_bmap o b : robdd b -> mono_on p (support b) -> post o (bmap p b) = bmap p (post o b).
  Proof.
    intros Hb Hm. unfold post. rewrite retain_bmap. destruct (o_model o); [|reflexivity].
    destruct (C20_shape b (o_retain o) Hb) as [[Hr _] Hi]. apply (bmodel_bmap _ 0 Hr). exact (mono_on_incl p _ _ Hi Hm).
  Qed.

  Lemma index_of_map v FV : index_of (p v) (map p FV) = index_of v FV.
  Proof. induction FV as [|x FV IH]; cbn [map index_of]; [reflexivity|]. rewrite IH, (eqb_p p q q_p). reflexivity. Qed.
  Lemma tt_rows_bmap FV : forall d vals, tt_rows (map p FV) (bmap p d) vals = tt_rows FV d vals.
  Proof.
    induction d as [| |t IHt v f IHf]; intros vals; cbn [bmap tt_rows]; auto.
    rewrite index_of_map. destruct (index_of v FV) as [i|]; [|reflexivity]. rewrite IHt, IHf. reflexivity.
  Qed.
  Lemma tt_rows_f_bmap FV filt d vals : tt_rows_f (map p FV) filt (bmap p d) vals = tt_rows_f FV filt d vals.
  Proof. rewrite !C10_filter, tt_rows_bmap. reflexivity. Qed.
  Lemma tv_rows_bmap FV d vals : tv_rows (map p FV) (bmap p d) vals = tv_rows FV d vals.
  Proof. rewrite !C10_vars, tt_rows_bmap. reflexivity. Qed.

  Lemma tok_vars_rt ts : tok_vars (map (rt p) ts) = map p (tok_vars ts).
  Proof. induction ts as [|t ts IH]; [reflexivity|]. destruct t; cbn [map rt tok_vars]; try exact IH. exact (f_equal (cons (p v)) IH). Qed.

  Lemma dedup_acc_map : forall l seen, dedup_acc (map p seen) (map p l) = map p (dedup_acc seen l).
  Proof.
    induction l as [|x l IH]; intros seen; cbn [map dedup_acc]; [reflexivity|].
    rewrite (mem_nat_map p q q_p x seen). destruct (mem_nat x seen); [apply IH|].
    cbn [map]. f_equal. exact (IH (x :: seen)).
  Qed.

  Lemma leb_mono l x y : mono_on p l -> In x l -> In y l -> Nat.leb (p x) (p y) = Nat.leb x y.
  Proof.
    intros Hm Hx Hy. destruct (Nat.leb_spec x y) as [Hle|Hgt].
    - apply Nat.leb_le. destruct (Nat.eq_dec x y) as [->|Hne]; [lia|]. pose proof (Hm x y Hx Hy ltac:(lia)). lia.
    - apply Nat.leb_gt. exact (Hm y x Hy Hx Hgt).
  Qed.
  Lemma insert_sorted_map x l : mono_on p (x :: l) -> insert_sorted (p x) (map p l) = map p (insert_sorted x l).
  Proof.
    induction l as [|y l IH]; intros Hm; cbn [map insert_sorted]; [reflexivity|].
    rewrite (leb_mono _ x y Hm) by (cbn; auto). destruct (Nat.leb x y); [reflexivity|].
    cbn [map]. f_equal. apply IH. apply (mono_on_incl p _ _) with (2 := Hm). intros z [<-|Hz]; cbn; auto.
  Qed.
  Lemma sort_ids_map l : mono_on p l -> sort_ids (map p l) = map p (sort_ids l).
  Proof.
    induction l as [|x l IH]; intros Hm; [reflexivity|]. change (insert_sorted (p x) (sort_ids (map p l)) = map p (insert_sorted x (sort_ids l))).
    rewrite IH by exact (mono_on_incl p _ _ (incl_tl x (incl_refl l)) Hm).
    apply insert_sorted_map, (mono_on_incl p _ _) with (2 := Hm). intros z [<-|Hz]; [left; reflexivity|right; apply sort_ids_In, Hz].
  Qed.

  Lemma var_is_free_rename : forall f x, var_is_free (rename p f) (p x) = var_is_free f x.
  Proof.
    induction f as [| |v|g IH|qq vs g IH|op fs n IH|op l rr IHl IHr|y i g IH|c t e IHc IHt IHe|op l rr IHl IHr|b0|] using AstFacts.form_ind';
      intros x; cbn [rename var_is_free]; auto.
    - apply (eqb_p p q q_p).
    - rewrite (mem_nat_map p q q_p x vs), IH. reflexivity.
    - rewrite existsb_map. eapply existsb_ext_Forall, Forall_impl, IH. intros g Hg. apply Hg.
    - rewrite !existsb_map. f_equal; eapply existsb_ext_Forall, Forall_impl; [|exact IHl| |exact IHr]; intros g Hg; apply Hg.
    - rewrite IH, (eqb_p p q q_p). reflexivity.
    - rewrite IHc, IHt, IHe. reflexivity.
    - rewrite IHl, IHr. reflexivity.
  Qed.
  Lemma free_of_map vars f : free_of (map p vars) (rename p f) = map p (free_of vars f).
  Proof.
    unfold free_of. induction vars as [|x vars IH]; cbn [map filter]; [reflexivity|].
    rewrite var_is_free_rename. destruct (var_is_free f x); cbn [map]; rewrite IH; reflexivity.
  Qed.

  (** reading the renamed tokens gives the renamed variables, free variables and tree *)
  Lemma parsed_rename ts p1 : mono_on p (pf_vars p1) -> ParserSound.eof_last ts -> parsed_of_tokens ts = Done p1 ->
    parsed_of_tokens (map (rt p) ts) = Done (mkParsed (map p (pf_vars p1)) (map p (pf_free p1)) (rename p (pf_form p1))).
  Proof.
    intros Hm He H1. destruct (parsed_of_tokens_rename p ts p1 He H1) as ([v2 f2 g2] & H2 & Hren). rewrite H2.
    destruct (parsed_of_tokens_inv _ _ H1) as (_ & Ev1 & Ef1), (parsed_of_tokens_inv _ _ H2) as (_ & Ev2 & Ef2).
    cbn [pf_vars pf_free pf_form] in Ev2, Ef2, Hren. subst v2 f2 g2. rewrite tok_vars_rt. unfold dedup in *.
    rewrite (dedup_acc_map _ []), sort_ids_map, free_of_map, <- Ev1, <- Ef1; [reflexivity|].
    intros x y Hx Hy. apply Hm; rewrite Ev1; apply sort_ids_In; assumption.
  Qed.
End Renaming.

Theorem C11_roundtrip fuel fuel' uc o ordfile1 txt out1 otxt2 out2 :
  cli fuel uc o ordfile1 txt = CliOk out1 ->
  ordering_of_file uc otxt2 = Done (number_from 0 (out_order out1)) ->      (* the exported list, read back as an ordering file *)
  cli fuel' uc o (Some otxt2) txt = CliOk out2 ->
  out_header out2 = out_header out1 /\ out_rows out2 = out_rows out1 /\ out_true out2 = out_true out1 /\ out_order out2 = out_order out1.
Proof.
  intros H1 Hord H2.
  destruct (cli_ok_inv _ _ _ _ _ _ H1) as (ord1 & p1 & b1 & rows1 & Ho1 & Hp1 & He1 & Hr1 & ->).
  destruct (cli_ok_inv _ _ _ _ _ _ H2) as (ord2 & p2 & b2 & rows2 & Ho2 & Hp2 & He2 & Hr2 & ->).
  cbn [ordering_of] in Ho2. rewrite Hord in Ho2. injection Ho2 as <-.
  cbn [output_of out_order out_header out_rows out_true] in *.
  set (names1 := name_table uc ord1 txt) in *. set (ws := map (name_of names1) (pf_vars p1)) in *.
  set (names2 := name_table uc (number_from 0 ws) txt) in *.
  pose proof (ordering_of_distinct _ _ _ Ho1) as Hd1. pose proof (ordering_of_distinct uc (Some otxt2) _ Hord) as Hd2.
  apply parsed_formula_inv in Hp1, Hp2. destruct Hp1 as (ts1 & Ht1 & Hp1), Hp2 as (ts2 & Ht2 & Hp2).
  destruct (tokens_related uc ord1 _ txt ts1 ts2 Hd1 Hd2 Ht1 Ht2) as (pp & qq & Hqp & -> & Hagree).
  fold names1 names2 in Hagree.
  destruct (pf_vars_spec ts1 p1 Hp1) as (_ & Hs1 & Hin1 & Hfree1 & _).
  assert (Hvars : forall x, In x (pf_vars p1) -> pp x = lookup_id names2 (name_of names1 x) /\ name_of names2 (pp x) = name_of names1 x)
    by (intros x Hx; apply Hagree, Hin1, Hx).
  (* the second run numbers the variables of the text by their position in the first run's order, which is sorted *)
  assert (Hmono : mono_on pp (pf_vars p1)).
  { assert (Hpos : forall a x, nth_error (pf_vars p1) a = Some x -> pp x = a).
    { intros a x Ha. rewrite (proj1 (Hvars x (nth_error_In _ _ Ha))).
      apply lookup_numbered; [apply (var_names_spec uc ord1 txt ts1 p1 Hd1 Ht1 Hp1)|]. unfold ws. rewrite nth_error_map, Ha. reflexivity. }
    intros x y Hx Hy Hlt. apply In_nth_error in Hx. apply In_nth_error in Hy. destruct Hx as (a & Ha), Hy as (b & Hb).
    rewrite (Hpos a x Ha), (Hpos b y Hb). exact (sorted_positions (pf_vars p1) Hs1 a b x y Ha Hb Hlt). }
  (* variables, free variables, diagram: those of the first run, renamed *)
  rewrite (parsed_rename pp qq Hqp ts1 p1 Hmono (tokenize_eof_last _ _ _ _ Ht1) Hp1) in Hp2. injection Hp2 as <-.
  cbn [pf_vars pf_free pf_form] in He2, Hr2 |- *.
  destruct (parsed_form_vars ts1 p1 Hp1) as [Hns1 _]. destruct (eval_parsed ts1 p1 fuel b1 Hp1 He1) as [Hrb1 Hsb1].
  assert (Hfsub : incl (pf_free p1) (pf_vars p1)) by (rewrite Hfree1; apply incl_filter).
  assert (Hmb : mono_on pp (support b1)) by exact (mono_on_incl pp _ _ (incl_tran Hsb1 Hfsub) Hmono).
  rewrite (C11_rank_iso_on pp qq Hqp fuel fuel' (pf_form p1) b1 b2 Hns1 He1 He2 Hmb) in Hr2.
  (* the printer does not see the renaming *)
  assert (Hany : all_any (map pp (pf_free p1)) = all_any (pf_free p1)) by apply map_map.
  rewrite Hany, (post_bmap pp qq Hqp o b1 Hrb1 Hmb), (tt_rows_bmap pp qq Hqp), Hr1 in Hr2. injection Hr2 as <-.
  assert (Hnames : forall l, incl l (pf_vars p1) -> map (name_of names2) (map pp l) = map (name_of names1) l).
  { intros l Hl. rewrite map_map. apply map_ext_in. intros x Hx. apply Hvars, Hl, Hx. }
  rewrite (Hnames _ Hfsub), (Hnames _ (incl_refl _)). auto.
Qed.
Print Assumptions C11_roundtrip.
