(** C11 at the level of texts: two variable orderings give renamings of one another.
    The tokens of a text are a function of the FINAL id table ([render]), whatever the ordering; hence under two
    orderings the token lists differ by a renaming of variable ids that respects names; the grammar is closed under
    such renamings, so the two parse trees are renamings of one another; by C11_rename the two answers denote the
    same function of the NAMED variables. *)
From Coq Require Import List PeanoNat Lia Sorting.Sorted.
Import ListNotations.
From Rsbdd Require Import Core.Bdd Core.Quant Lang.Eval Lang.Rename.
From Rsbdd Require Import Syntax.Token Syntax.Lexer Syntax.Tokenize Syntax.SrcTables Syntax.Grammar Syntax.ParserSound Syntax.ParserComplete.
From Rsbdd Require Import Io.DotBdd Cli.Pipeline Cli.PipelineFacts.

(** the default 0 is never taken where [render] is used: the final table holds every name of the text ([number_names_covers]) *)
Definition lookup_id (m : idmap) (w : name) : nat := match assoc w m with Some i => i | None => 0 end.

(** [classify] of Syntax/Tokenize.v with the id of a name read from a fixed table instead of assigned on the way ([classify_render]) *)
Fixpoint render (mf : idmap) (rs : list rtok) : option (list token) :=
  match rs with
  | [] => Some [TEof]
  | RSym s :: r => option_map (cons (token_of_sym s)) (render mf r)
  | RNumber ds :: r => match parse_usize ds with Some n => option_map (cons (TNum n)) (render mf r) | None => None end
  | RRef _ :: r => option_map (cons TRefT) (render mf r)
  | RIdent w :: r =>
      match assoc w keywords with
      | Some t => option_map (cons t) (render mf r)
      | None => option_map (cons (TVar (lookup_id mf w))) (render mf r)
      end
  end.

Lemma lookup_id_assoc (m : idmap) w i : assoc w m = Some i -> lookup_id m w = i.
Proof. unfold lookup_id. intros ->. reflexivity. Qed.

Lemma number_names_keeps ws : forall m ctr w i, assoc w m = Some i -> assoc w (number_names m ctr ws) = Some i.
Proof.
  induction ws as [|x ws IH]; intros m ctr w i H; cbn [number_names]; auto.
  destruct (assoc x m) eqn:E; [apply IH; exact H|]. apply IH.
  destruct (name_eqb_spec x w) as [->|Hne]; [congruence|]. rewrite assoc_cons_ne by auto. exact H.
Qed.

Lemma number_names_inv ws : forall m ctr, idinv m ctr -> exists c', idinv (number_names m ctr ws) c'.
Proof.
  induction ws as [|x ws IH]; intros m ctr H; cbn [number_names]; [eauto|].
  destruct (assoc x m) eqn:E; [apply IH; exact H|]. apply IH. apply idinv_fresh; auto.
Qed.

Theorem classify_render : forall rs m ctr ts, classify m ctr rs = Some ts ->
  render (number_names m ctr (ident_names rs)) rs = Some ts.
Proof.
  induction rs as [|t rs IH]; intros m ctr ts H; cbn [classify] in H; cbn [render ident_names].
  - exact H.
  - assert (Hcons : forall k m' c', option_map (cons k) (classify m' c' rs) = Some ts ->
              option_map (cons k) (render (number_names m' c' (ident_names rs)) rs) = Some ts).
    { intros k m' c' E. destruct (classify m' c' rs) as [ts'|] eqn:E'; [|discriminate]. rewrite (IH _ _ _ E'). exact E. }
    destruct t as [s|ds|w|w]; cbn [render ident_names].
    + exact (Hcons _ m ctr H).
    + destruct (parse_usize ds); [exact (Hcons _ m ctr H)|discriminate].
    + exact (Hcons _ m ctr H).
    + destruct (assoc w keywords) as [k|] eqn:Ek; cbv iota beta; [exact (Hcons _ m ctr H)|].
      (* the id the classifier gives [w] here is the one the final table holds *)
      cbn [number_names]. destruct (assoc w m) as [id|] eqn:Em; cbv iota beta.
      * rewrite (lookup_id_assoc _ w id (number_names_keeps _ m ctr w id Em)). exact (Hcons _ m ctr H).
      * rewrite (lookup_id_assoc _ w ctr (number_names_keeps (ident_names rs) _ (S ctr) w ctr (assoc_cons_eq w ctr m))).
        exact (Hcons _ _ (S ctr) H).
Qed.

Lemma number_names_covers ws : forall m ctr w, In w ws -> exists i, assoc w (number_names m ctr ws) = Some i.
Proof.
  induction ws as [|x ws IH]; intros m ctr w Hin; [destruct Hin|]. cbn [number_names].
  destruct Hin as [->|Hin].
  - destruct (assoc w m) as [i|] eqn:E.
    + exists i. apply number_names_keeps. exact E.
    + exists ctr. apply number_names_keeps. apply assoc_cons_eq.
  - destruct (assoc x m); apply IH; exact Hin.
Qed.

(** the invariant of the id table when the ids of the ordering are distinct: over ALL entries, shadowed ones included, the ids
    are distinct and below the counter, since [name_of] scans entries; [Tokenize.idinv] constrains [assoc] only *)
Definition tinv (m : idmap) (c : nat) : Prop := NoDup (map snd m) /\ forall w i, In (w, i) m -> i < c.

Lemma name_of_In m w i : NoDup (map snd m) -> In (w, i) m -> name_of m i = w.
Proof.
  intros Hnd. induction m as [|[w0 i0] m IH]; intros Hin; [destruct Hin|]. cbn [name_of].
  cbn [map snd] in Hnd. inversion Hnd as [|? ? Hni Hnd']; subst.
  destruct Hin as [E|Hin].
  - inversion E; subst. rewrite Nat.eqb_refl. reflexivity.
  - destruct (Nat.eqb_spec i0 i) as [->|Hne]; [|apply IH; auto].
    exfalso. apply Hni. apply in_map_iff. exists (w, i). split; auto.
Qed.
Lemma lookup_named m c w : tinv m c -> (exists i, assoc w m = Some i) -> name_of m (lookup_id m w) = w /\ lookup_id m w < c.
Proof.
  intros [Hnd Hlt] (i & E). rewrite (lookup_id_assoc m w i E). apply assoc_in in E.
  split; [exact (name_of_In m w i Hnd E)|exact (Hlt w i E)].
Qed.

Lemma tinv_fresh m c w : tinv m c -> tinv ((w, c) :: m) (S c).
Proof.
  intros [Hnd Hlt]. split.
  - cbn [map snd]. constructor; auto. intros Hin. apply in_map_iff in Hin. destruct Hin as ([w' i] & E & Hin). cbn in E. subst i.
    specialize (Hlt _ _ Hin). lia.
  - intros w' i [E|Hin]; [inversion E; lia|]. specialize (Hlt _ _ Hin). lia.
Qed.
Lemma number_names_tinv ws : forall m c, tinv m c -> exists c', tinv (number_names m c ws) c'.
Proof.
  induction ws as [|x ws IH]; intros m c H; cbn [number_names]; [eauto|].
  destruct (assoc x m); [apply IH; exact H|]. apply IH. apply tinv_fresh. exact H.
Qed.

(** [preload] (parser.rs:719-726) pushes the entries in order, so the table is the ordering reversed, and the counter ends above every id *)
Lemma preload_spec o : fst (preload o) = rev o /\ forall w i, In (w, i) o -> i < snd (preload o).
Proof.
  unfold preload. set (step := fun (st : idmap * nat) (e : name * nat) => ((fst e, snd e) :: fst st, Nat.max (snd st) (S (snd e)))).
  assert (G : forall l acc c, fst (fold_left step l (acc, c)) = rev l ++ acc /\
            forall w i, i < c \/ In (w, i) l -> i < snd (fold_left step l (acc, c))).
  { induction l as [|[w i] l IH]; intros acc c; [split; [reflexivity|intros w i [H|[]]; exact H]|].
    change (fold_left step ((w, i) :: l) (acc, c)) with (fold_left step l ((w, i) :: acc, Nat.max c (S i))). cbn [rev In].
    destruct (IH ((w, i) :: acc) (Nat.max c (S i))) as (E & Hl). split; [rewrite <- app_assoc; exact E|].
    intros w' i' [H|[[= _ <-]|H]]; apply (Hl w'); [left; lia|left; lia|right; exact H]. }
  destruct (G o [] 0) as (E & Hl). rewrite app_nil_r in E. eauto.
Qed.
Lemma preload_tinv o : NoDup (map snd o) -> tinv (fst (preload o)) (snd (preload o)).
Proof.
  intros Hnd. destruct (preload_spec o) as [E Hl]. rewrite E at 1. split.
  - rewrite map_rev. apply NoDup_rev. exact Hnd.
  - intros w i Hin. apply (Hl w), in_rev. exact Hin.
Qed.

(** [rt pi]: a token with its variable id renamed; [pi_of m1 m2]: from an id of one run to that of the other, through the name *)
Definition rt (pi : nat -> nat) (t : token) : token := match t with TVar v => TVar (pi v) | t => t end.

Definition pi_of (m1 m2 : idmap) (i : nat) : nat := lookup_id m2 (name_of m1 i).

(** a raw token either is a variable name, rendered as its id in the table, or adds no name and is rendered (if at all)
    as a token that is no variable, whatever the table *)
Lemma render_cons r rs :
  (exists w, ident_names (r :: rs) = w :: ident_names rs /\
     forall mf, render mf (r :: rs) = option_map (cons (TVar (lookup_id mf w))) (render mf rs)) \/
  ident_names (r :: rs) = ident_names rs /\ exists k : option token, (forall v, k <> Some (TVar v)) /\
     forall mf, render mf (r :: rs) = match k with Some t => option_map (cons t) (render mf rs) | None => None end.
Proof.
  destruct r as [s|ds|w|w]; cbn [render ident_names]; [right; split; [reflexivity|].. |].
  - exists (Some (token_of_sym s)). split; [destruct s; discriminate|reflexivity].
  - exists (option_map TNum (parse_usize ds)). destruct (parse_usize ds); split; (discriminate || reflexivity).
  - exists (Some TRefT). split; [discriminate|reflexivity].
  - destruct (assoc w keywords) as [t|] eqn:Ek; [right; split; [reflexivity|]|left; exists w; split; reflexivity].
    exists (Some t). split; [intros v [= ->]; exact (proj1 (proj2 (keyword_token w _ Ek)) v eq_refl)|reflexivity].
Qed.

Lemma render_renamed pp m1 m2 : forall rs,
  (forall w, In w (ident_names rs) -> pp (lookup_id m1 w) = lookup_id m2 w) ->
  render m2 rs = option_map (map (rt pp)) (render m1 rs).
Proof.
  induction rs as [|r rs IH]; intros Hpp; [reflexivity|].
  destruct (render_cons r rs) as [(w & En & E)|(En & [t|] & Hk & E)]; rewrite En in Hpp; rewrite !E; [| |reflexivity].
  - rewrite (IH (fun w' Hw' => Hpp w' (or_intror Hw'))), <- (Hpp w (or_introl eq_refl)). destruct (render m1 rs); reflexivity.
  - rewrite (IH Hpp). destruct (render m1 rs); [|reflexivity]. destruct t; try reflexivity. destruct (Hk v eq_refl).
Qed.

Lemma render_rename m1 m2 c1 c2 rs ts1 ts2 : tinv m1 c1 -> tinv m2 c2 ->
  (forall w, In w (ident_names rs) -> exists i, assoc w m1 = Some i) ->
  render m1 rs = Some ts1 -> render m2 rs = Some ts2 -> ts2 = map (rt (pi_of m1 m2)) ts1.
Proof.
  intros I1 _ Hcov R1 R2. rewrite (render_renamed (pi_of m1 m2) m1 m2 rs), R1 in R2; [injection R2 as <-; reflexivity|].
  intros w Hw. unfold pi_of. rewrite (proj1 (lookup_named m1 c1 w I1 (Hcov w Hw))). reflexivity.
Qed.

Lemma render_tok_vars mf : forall rs ts, render mf rs = Some ts -> tok_vars ts = map (lookup_id mf) (ident_names rs).
Proof.
  induction rs as [|r rs IH]; intros ts H; [injection H as <-; reflexivity|].
  destruct (render_cons r rs) as [(w & -> & E)|(-> & [t|] & Hk & E)]; rewrite E in H; [| |discriminate].
  all: destruct (render mf rs) as [a|]; [injection H as <-; cbn [tok_vars map]|discriminate].
  - rewrite (IH a eq_refl). reflexivity.
  - rewrite <- (IH a eq_refl). destruct t; try reflexivity. destruct (Hk v eq_refl).
Qed.

Section GrammarRename.
  Variable p : nat -> nat.
  Notation rtp := (rt p).
  Notation ren := (rename p).

  Lemma binop_rt t : binop_of (rtp t) = binop_of t. Proof. destruct t; reflexivity. Qed.
  Lemma cop_rt t : cop_of (rtp t) = cop_of t. Proof. destruct t; reflexivity. Qed.

  Lemma Gvars_rename s vs : Gvars s vs -> Gvars (map rtp s) (map p vs).
  Proof. induction 1; cbn [map rt]; constructor; auto. Qed.

  Lemma grammar_rename :
    (forall s f, Gsub s f -> Gsub (map rtp s) (ren f)) /\
    (forall s f, Gclosed s f -> Gclosed (map rtp s) (ren f)) /\
    (forall s f, Gopen s f -> Gopen (map rtp s) (ren f)) /\
    (forall s l, Gitems s l -> Gitems (map rtp s) (map ren l)).
  Proof.
    apply G_mutind; intros; cbn [map rt rename]; repeat (rewrite map_app; cbn [map rt]).
    (* a rule goes to itself; where it has an operator token, [rt] leaves the operator as it is *)
    all: try (constructor; auto using Gvars_rename; fail).
    - apply Gs_bin; auto. rewrite binop_rt. exact e.
    - apply Gc_countc; auto. rewrite cop_rt. exact e.
    - apply Gc_countv; auto. rewrite cop_rt. exact e.
  Qed.

  Lemma G_formula_rename ts f : G_formula ts f -> G_formula (map rtp ts) (ren f).
  Proof.
    intros (s & -> & H). exists (map rtp s). split; [rewrite map_app; reflexivity|]. apply (proj1 grammar_rename); exact H.
  Qed.
End GrammarRename.

(** [f], which [g] inverts on [l] and which maps [l] below [k], extends to a renaming with a left inverse:
    ids outside [l] are moved above [k] *)
Lemma total_renaming (l : list nat) (f g : nat -> nat) k : (forall x, In x l -> g (f x) = x /\ f x < k) ->
  exists p q : nat -> nat, (forall x, q (p x) = x) /\ forall x, In x l -> p x = f x.
Proof.
  intros H. exists (fun x => if in_dec Nat.eq_dec x l then f x else x + k), (fun y => if y <? k then g y else y - k).
  split; intros x; destruct (in_dec Nat.eq_dec x l) as [Hin|Hni]; [| |reflexivity|contradiction].
  - destruct (H x Hin) as [E Hlt]. rewrite (proj2 (Nat.ltb_lt _ _) Hlt). exact E.
  - rewrite (proj2 (Nat.ltb_ge _ _)) by lia. lia.
Qed.

Lemma name_table_spec uc ord txt ts : NoDup (map snd ord) -> tokenize uc ord txt = Some ts ->
  render (name_table uc ord txt) (lex_raw uc txt) = Some ts /\
  exists d, forall w, In w (ident_names (lex_raw uc txt)) ->
    name_of (name_table uc ord txt) (lookup_id (name_table uc ord txt) w) = w /\ lookup_id (name_table uc ord txt) w < d.
Proof.
  intros Hd. unfold tokenize, name_table. pose proof (preload_tinv ord Hd) as T.
  destruct (preload ord) as [m c]. cbn [fst snd] in T. intros C. split; [apply classify_render; exact C|].
  destruct (number_names_tinv (ident_names (lex_raw uc txt)) m c T) as [d F]. exists d. intros w Hw.
  apply (lookup_named _ d w F), number_names_covers, Hw.
Qed.

Lemma var_names_spec uc ord txt ts p : NoDup (map snd ord) -> tokenize uc ord txt = Some ts -> parsed_of_tokens ts = Done p ->
  NoDup (map (name_of (name_table uc ord txt)) (pf_vars p)) /\
  forall w, In w (map (name_of (name_table uc ord txt)) (pf_vars p)) -> In w (ident_names (lex_raw uc txt)).
Proof.
  intros Hd Ht Hp. destruct (pf_vars_spec ts p Hp) as (Hnd & _ & Hin & _), (name_table_spec uc ord txt ts Hd Ht) as (R & d & N).
  set (n := name_table uc ord txt) in *.
  assert (Hn : forall x, In x (pf_vars p) -> In (name_of n x) (ident_names (lex_raw uc txt)) /\ lookup_id n (name_of n x) = x).
  { intros x Hx. apply Hin in Hx. rewrite (render_tok_vars _ _ _ R) in Hx. apply in_map_iff in Hx. destruct Hx as (w & <- & Hw).
    rewrite (proj1 (N w Hw)). split; [exact Hw|reflexivity]. }
  split.
  - apply (NoDup_map_inv (lookup_id n)). rewrite map_map, (map_ext_in _ id), map_id; [exact Hnd|]. intros x Hx. exact (proj2 (Hn x Hx)).
  - intros w Hw. apply in_map_iff in Hw. destruct Hw as (x & <- & Hx). exact (proj1 (Hn x Hx)).
Qed.

Lemma tokens_related uc o1 o2 txt ts1 ts2 : NoDup (map snd o1) -> NoDup (map snd o2) ->
  tokenize uc o1 txt = Some ts1 -> tokenize uc o2 txt = Some ts2 ->
  exists pp qq : nat -> nat, (forall x, qq (pp x) = x) /\ ts2 = map (rt pp) ts1 /\
    forall x, In x (tok_vars ts1) ->
      pp x = lookup_id (name_table uc o2 txt) (name_of (name_table uc o1 txt) x) /\
      name_of (name_table uc o2 txt) (pp x) = name_of (name_table uc o1 txt) x.
Proof.
  intros Hd1 Hd2 Ht1 Ht2.
  destruct (name_table_spec uc o1 txt ts1 Hd1 Ht1) as (R1 & d1 & N1), (name_table_spec uc o2 txt ts2 Hd2 Ht2) as (R2 & d2 & N2).
  set (n1 := name_table uc o1 txt) in *. set (n2 := name_table uc o2 txt) in *. set (names := ident_names (lex_raw uc txt)) in *.
  (* on the ids the first table gives the names of the text, [pi_of n1 n2] is undone by [pi_of n2 n1] *)
  destruct (total_renaming (map (lookup_id n1) names) (pi_of n1 n2) (pi_of n2 n1) d2) as (pp & qq & Hqp & Hpp).
  { intros x Hx. apply in_map_iff in Hx. destruct Hx as (w & <- & Hw). unfold pi_of.
    rewrite (proj1 (N1 w Hw)), (proj1 (N2 w Hw)). split; [reflexivity|exact (proj2 (N2 w Hw))]. }
  assert (Hnm : forall w, In w names -> pp (lookup_id n1 w) = lookup_id n2 w).
  { intros w Hw. rewrite (Hpp _ (in_map _ _ _ Hw)). unfold pi_of. rewrite (proj1 (N1 w Hw)). reflexivity. }
  exists pp, qq. split; [exact Hqp|]. rewrite (render_renamed pp n1 n2 _ Hnm), R1 in R2. split; [injection R2 as <-; reflexivity|].
  intros x Hx. rewrite (render_tok_vars _ _ _ R1) in Hx. apply in_map_iff in Hx. destruct Hx as (w & <- & Hw).
  rewrite (proj1 (N1 w Hw)), (Hnm w Hw). split; [reflexivity|exact (proj1 (N2 w Hw))].
Qed.

(** the parser commutes with a renaming of variable ids: it is the grammar (C08), which is closed under renaming *)
Lemma parsed_of_tokens_rename pp ts p : eof_last ts -> parsed_of_tokens ts = Done p ->
  exists p', parsed_of_tokens (map (rt pp) ts) = Done p' /\ pf_form p' = rename pp (pf_form p).
Proof.
  intros He Hp. destruct (parsed_of_tokens_inv ts p Hp) as (Hpar & _).
  pose proof (C08_complete _ _ (G_formula_rename pp ts _ (C08_sound_lexed _ ts _ He Hpar))) as Hpar'.
  unfold parsed_of_tokens. rewrite Hpar'. eexists. split; reflexivity.
Qed.

Theorem C11_text uc o1 o2 txt p1 p2 n1 n2 b1 b2 :
  NoDup (map snd o1) -> NoDup (map snd o2) ->
  parsed_formula uc o1 txt = Done p1 -> parsed_formula uc o2 txt = Done p2 ->
  eval_f n1 (pf_form p1) = Some b1 -> eval_f n2 (pf_form p2) = Some b2 ->
  forall sigma : name -> bool,
    beval (fun i => sigma (name_of (name_table uc o1 txt) i)) b1 =
    beval (fun i => sigma (name_of (name_table uc o2 txt) i)) b2.
Proof.
  intros Hd1 Hd2 Hp1 Hp2 He1 He2 sigma.
  apply parsed_formula_inv in Hp1, Hp2. destruct Hp1 as (ts1 & Ht1 & Hp1), Hp2 as (ts2 & Ht2 & Hp2).
  destruct (tokens_related uc o1 o2 txt ts1 ts2 Hd1 Hd2 Ht1 Ht2) as (pp & qq & Hqp & -> & Hagree).
  destruct (parsed_of_tokens_rename pp ts1 p1 (tokenize_eof_last _ _ _ _ Ht1) Hp1) as (p2' & Hp2' & Hren).
  rewrite Hp2 in Hp2'. injection Hp2' as <-. rewrite Hren in He2.
  destruct (parse_vars ts1 _ _ (proj1 (parsed_of_tokens_inv ts1 p1 Hp1))) as [Hns1 Hfv1].
  rewrite (C11_rename pp qq Hqp n1 n2 (pf_form p1) b1 b2 Hns1 He1 He2 (fun i => sigma (name_of (name_table uc o2 txt) i))).
  apply beval_agree_support. intros x Hx. cbn beta.
  rewrite (proj2 (Hagree x (Hfv1 x (support_fv n1 _ b1 Hns1 He1 x Hx)))). reflexivity.
Qed.
Print Assumptions C11_text.

(** orderings read from a file; [lookup_numbered] and [sorted_positions] are used by Cli/RoundTrip.v only *)
Theorem ordering_of_file_distinct uc t o : ordering_of_file uc t = Done o -> NoDup (map snd o).
Proof. exact (ordering_of_distinct uc (Some t) o). Qed.

Lemma dedup_names_uniq : forall ws seen, dedup_names seen ws = uniq_acc name_eqb seen ws.
Proof. induction ws as [|w ws IH]; intros seen; cbn [dedup_names uniq_acc]; [reflexivity|]. rewrite !IH. reflexivity. Qed.
Lemma number_from_fst : forall ws k, map fst (number_from k ws) = ws.
Proof. induction ws as [|w ws IH]; intros k; cbn [number_from map fst]; [reflexivity|]. rewrite IH. reflexivity. Qed.
Lemma number_from_In : forall ws k a w, nth_error ws a = Some w -> In (w, k + a) (number_from k ws).
Proof.
  induction ws as [|x ws IH]; intros k a w Ha; [destruct a; discriminate|]. destruct a as [|a]; cbn [nth_error number_from] in *.
  - inversion Ha; subst. left. f_equal. lia.
  - right. replace (k + S a) with (S k + a) by lia. apply IH. exact Ha.
Qed.
Lemma assoc_number_from ws k a w : NoDup ws -> nth_error ws a = Some w -> assoc w (number_from k ws) = Some (k + a).
Proof. intros Hnd Ha. apply in_assoc; [rewrite number_from_fst; exact Hnd|exact (number_from_In ws k a w Ha)]. Qed.
Lemma lookup_numbered uc ws txt a w : NoDup ws -> nth_error ws a = Some w ->
  lookup_id (name_table uc (number_from 0 ws) txt) w = a.
Proof.
  intros Hnd Ha. unfold name_table. pose proof (proj1 (preload_spec (number_from 0 ws))) as E.
  destruct (preload (number_from 0 ws)) as [m c]. cbn [fst] in E. subst m.
  apply lookup_id_assoc, number_names_keeps, in_assoc.
  - rewrite map_rev, number_from_fst. apply NoDup_rev. exact Hnd.
  - apply -> in_rev. exact (number_from_In ws 0 a w Ha).
Qed.

Lemma sorted_positions l : Sorted le l -> forall a b x y, nth_error l a = Some x -> nth_error l b = Some y -> x < y -> a < b.
Proof.
  intros Hs. apply Sorted_StronglySorted in Hs; [|intros u v w' H1 H2; lia].
  induction Hs as [|z l Hs IH Hall]; intros a b x y Ha Hb Hlt; [destruct a; discriminate|].
  rewrite Forall_forall in Hall.
  destruct a as [|a], b as [|b]; cbn [nth_error] in Ha, Hb.
  - inversion Ha; inversion Hb; subst. lia.
  - lia.
  - inversion Hb; subst. apply nth_error_In in Ha. pose proof (Hall x Ha). lia.
  - pose proof (IH a b x y Ha Hb Hlt). lia.
Qed.

(** "variables listed in the file are ordered as in the file": the ordering read from a file is the list of its
    distinct names in order of first appearance, numbered by position; the id of the name at position a is a *)
Theorem C11_file_order uc t o : ordering_of_file uc t = Done o ->
  exists ws, NoDup ws /\ o = number_from 0 ws /\ ws = dedup_names [] (ident_names (lex_raw uc t)) /\
    forall a w, nth_error ws a = Some w -> assoc w o = Some a.
Proof.
  unfold ordering_of_file. destruct (tokenize uc [] t); [|discriminate]. intros H. injection H as <-.
  exists (dedup_names [] (ident_names (lex_raw uc t))).
  assert (Hnd : NoDup (dedup_names [] (ident_names (lex_raw uc t)))) by (rewrite dedup_names_uniq; apply (uniq_NoDup name_eqb name_eqb_spec)).
  split; [exact Hnd|]. split; [reflexivity|]. split; [reflexivity|].
  intros a w Ha. exact (assoc_number_from _ 0 a w Hnd Ha).
Qed.
