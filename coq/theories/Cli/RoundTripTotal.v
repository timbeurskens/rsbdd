(** C11: a run that prints can always be repeated from its exported order.  The run that reads the order back tokenizes
    (success of the tokenizer does not depend on the id table), parses (the grammar is closed under renaming and the parser
    is complete), evaluates with some fuel (the renamed formula has the renamed denotation, and every denotation is reached
    by the evaluator), hence prints (cli_ok_intro) - and what it prints is the first output (C11_roundtrip). *)
From Coq Require Import List PeanoNat.
Import ListNotations.
From Rsbdd Require Import Lang.Den Lang.Eval Lang.EvalSound Lang.EvalComplete Lang.Free Lang.Rename.
From Rsbdd Require Import Syntax.Tokenize.
From Rsbdd Require Import Cli.Pipeline Cli.PipelineFacts Cli.Ordering Cli.RoundTrip.

(** whether the tokenizer answers depends on the text only (a number literal that does not fit), not on the id table *)
Lemma classify_indep : forall rs m c m' c' ts, classify m c rs = Some ts -> exists ts', classify m' c' rs = Some ts'.
Proof.
  induction rs as [|r rs IH]; intros m c m' c' ts H; [eexists; reflexivity|]. rewrite classify_cons in H |- *.
  destruct (step_tok m c r) as [[[t m1] c1]|] eqn:E; [|discriminate].
  destruct (step_tok m' c' r) as [[[t' m2] c2]|] eqn:E'; [|rewrite (step_tok_none _ _ m c _ E') in E; discriminate].
  destruct (classify m1 c1 rs) as [ts1|] eqn:E1; [|discriminate]. destruct (IH _ _ m2 c2 _ E1) as (ts2 & ->). eexists; reflexivity.
Qed.

Lemma tokenize_indep uc o1 o2 txt ts1 : tokenize uc o1 txt = Some ts1 -> exists ts2, tokenize uc o2 txt = Some ts2.
Proof. unfold tokenize. destruct (preload o1) as [m1 c1], (preload o2) as [m2 c2]. apply classify_indep. Qed.

(** the second run parses, to the tree of the first renamed: the grammar is closed under renaming and the parser is complete *)
Lemma second_run uc o1 o2 txt p1 :
  NoDup (map snd o1) -> NoDup (map snd o2) -> parsed_formula uc o1 txt = Done p1 ->
  exists (pp qq : nat -> nat) p2, (forall x, qq (pp x) = x) /\ parsed_formula uc o2 txt = Done p2 /\ pf_form p2 = rename pp (pf_form p1).
Proof.
  intros Hd1 Hd2 Hp1. apply parsed_formula_inv in Hp1. destruct Hp1 as (ts1 & Ht1 & Hp1).
  destruct (tokenize_indep uc o1 o2 txt ts1 Ht1) as (ts2 & Ht2).
  destruct (tokens_related uc o1 o2 txt ts1 ts2 Hd1 Hd2 Ht1 Ht2) as (pp & qq & Hqp & -> & _).
  destruct (parsed_of_tokens_rename pp ts1 p1 (tokenize_eof_last _ _ _ _ Ht1) Hp1) as (p2 & Hp2 & Hren).
  exists pp, qq, p2. split; [exact Hqp|]. split; [apply parsed_formula_inv; eauto|exact Hren].
Qed.

Lemma second_run_parses uc o1 o2 txt p1 :
  NoDup (map snd o1) -> NoDup (map snd o2) -> parsed_formula uc o1 txt = Done p1 -> exists p2, parsed_formula uc o2 txt = Done p2.
Proof. intros Hd1 Hd2 Hp1. destruct (second_run uc o1 o2 txt p1 Hd1 Hd2 Hp1) as (_ & _ & p2 & _ & Hp2 & _). eauto. Qed.

Lemma rename_evaluates (p q : nat -> nat) : (forall x, q (p x) = x) -> forall n f b, nofsub f -> eval_f n f = Some b ->
  exists m b', eval_f m (rename p f) = Some b'.
Proof.
  intros Hq n f b Hns E.
  destruct (sound n f b (nofsub_wf f Hns) E) as [D _].
  assert (D' : Den empty (rename p f) (pull p (bden b))).
  { apply (Den_rename p q Hq f empty empty); auto. - intros y e Hy. discriminate. - intros x. cbn. exact I. }
  destruct (eval_total _ _ _ (Nat.lt_succ_diag_r _) (nofsub_wf _ (nofsub_rename p f Hns)) D') as (b' & m & Em). eauto.
Qed.

Theorem C11_roundtrip_total fuel uc o ordfile1 txt out1 otxt2 :
  cli fuel uc o ordfile1 txt = CliOk out1 ->
  ordering_of_file uc otxt2 = Done (number_from 0 (out_order out1)) ->
  exists fuel0, forall fuel', fuel0 <= fuel' ->
    exists out2, cli fuel' uc o (Some otxt2) txt = CliOk out2 /\
      out_header out2 = out_header out1 /\ out_rows out2 = out_rows out1 /\ out_true out2 = out_true out1 /\ out_order out2 = out_order out1.
Proof.
  intros H1 Hord.
  destruct (cli_ok_inv _ _ _ _ _ _ H1) as (ord1 & p1 & b1 & rows1 & Ho1 & Hp1 & He1 & _ & _).
  destruct (second_run uc ord1 _ txt p1 (ordering_of_distinct _ _ _ Ho1) (ordering_of_distinct uc (Some otxt2) _ Hord) Hp1)
    as (pp & qq & p2 & Hqp & Hp2 & Hren).
  assert (Hns1 : nofsub (pf_form p1)).
  { apply parsed_formula_inv in Hp1. destruct Hp1 as (ts1 & _ & Hp1). apply (parsed_form_vars ts1 p1 Hp1). }
  destruct (rename_evaluates pp qq Hqp fuel _ b1 Hns1 He1) as (m & b2 & He2). rewrite <- Hren in He2.
  exists m. intros fuel' Hle.
  destruct (cli_ok_intro fuel' uc o (Some otxt2) txt _ p2 b2 Hord Hp2 (eval_mono_le m fuel' _ b2 He2 Hle)) as (out2 & H2).
  exists out2. split; [exact H2|]. exact (C11_roundtrip fuel fuel' uc o ordfile1 txt out1 otxt2 out2 H1 Hord H2).
Qed.
Print Assumptions C11_roundtrip_total.
