(** C10 (filters and -v): the filtered table and the -v listing are selections of the full table. *)
From Coq Require Import List Lia.
Import ListNotations.
From Rsbdd Require Import Core.Bdd Core.Ops Cli.Table.

(** the leaf test of print_truth_table_recursive (rsbdd.rs:380-386) *)
Definition agrees (filt : Ops.tte) (res : bool) : bool :=
  match filt with TAny => true | TTrue => res | TFalse => negb res end.

(** print_truth_table_recursive (rsbdd.rs:359-388) with its filter argument; it is [tt_rows] filtered ([C10_filter] below), by
    a filter that keeps everything when the argument is [TAny] *)
Fixpoint tt_rows_f (FV : list nat) (filt : Ops.tte) (d : bdd) (vals : list cell) : option (list row) :=
  match d with
  | F => Some (if agrees filt false then [(vals, false)] else [])
  | T => Some (if agrees filt true then [(vals, true)] else [])
  | Nd t v f =>
      match index_of v FV with
      | None => None
      | Some i =>
          match tt_rows_f FV filt f (set_nth i TF vals), tt_rows_f FV filt t (set_nth i TT vals) with
          | Some r0, Some r1 => Some (r0 ++ r1) | _, _ => None end
      end
  end.

(** print_true_vars_recursive (rsbdd.rs:325-356): one line per path to the true leaf *)
Fixpoint tv_rows (FV : list nat) (d : bdd) (vals : list cell) : option (list (list cell)) :=
  match d with
  | F => Some []
  | T => Some [vals]
  | Nd t v f =>
      match index_of v FV with
      | None => None
      | Some i =>
          match tv_rows FV f (set_nth i TF vals), tv_rows FV t (set_nth i TT vals) with
          | Some r0, Some r1 => Some (r0 ++ r1) | _, _ => None end
      end
  end.

Theorem C10_filter FV filt : forall d vals,
  tt_rows_f FV filt d vals = option_map (filter (fun r : row => agrees filt (snd r))) (tt_rows FV d vals).
Proof.
  induction d as [| |t IHt v f IHf]; intros vals; cbn [tt_rows_f tt_rows option_map filter snd].
  - destruct (agrees filt false); reflexivity.
  - destruct (agrees filt true); reflexivity.
  - destruct (index_of v FV) as [i|]; [|reflexivity].
    rewrite IHf, IHt. destruct (tt_rows FV f (set_nth i TF vals)), (tt_rows FV t (set_nth i TT vals)); cbn [option_map]; auto.
    rewrite filter_app. reflexivity.
Qed.

Theorem C10_vars FV : forall d vals,
  tv_rows FV d vals = option_map (fun rows => map fst (filter (fun r : row => snd r) rows)) (tt_rows FV d vals).
Proof.
  induction d as [| |t IHt v f IHf]; intros vals; cbn [tv_rows tt_rows option_map filter snd map fst]; auto.
  destruct (index_of v FV) as [i|]; [|reflexivity].
  rewrite IHf, IHt. destruct (tt_rows FV f (set_nth i TF vals)), (tt_rows FV t (set_nth i TT vals)); cbn [option_map]; auto.
  rewrite filter_app, map_app. reflexivity.
Qed.

(** the loop of -b k over a thunk that stands for the evaluation (a function of the unchanged environment):
    for k >= 1 its result is that of one call *)
Fixpoint repeat_eval {A} (k : nat) (ev : unit -> A) (last : A) : A :=
  match k with 0 => last | S j => repeat_eval j ev (ev tt) end.
Theorem C10_bench {A} (ev : unit -> A) k d0 : 1 <= k -> repeat_eval k ev d0 = ev tt.
Proof.
  intros Hk. destruct k as [|k]; [lia|]. cbn [repeat_eval]. clear Hk. induction k as [|k IH]; cbn [repeat_eval]; auto.
Qed.
Print Assumptions C10_filter.
