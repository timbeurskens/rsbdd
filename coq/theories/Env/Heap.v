(** C13: the unique table as an abstract data type over explicit addresses. *)
From Coq Require Import List Bool Lia PeanoNat.
Import ListNotations.
From Rsbdd Require Import Core.Bdd Core.OpsFacts.

(** [BDDEnv] of src/bdd.rs: a cell is an Rc allocation the table retains ([mk_choice] allocates on every call but keeps the new Rc only on a miss)
    and an address the pointer to it; [table] is the hash map [nodes],
    keyed by structure ([lookup] compares keys with [bdd_eqb], as the derived Hash and Eq of [BDD] do), and [range] the
    pointers it holds, those handed out; [h_new], [h_mk_const], [h_mk_choice] are [new], [mk_const], [mk_choice], the last
    with [simplify] as the test [bdd_eqb x y].  [struct] reads back the diagram below an address; children lie below their
    parent ([inv_acyclic]), so fuel [S a] suffices at [a]. *)
Definition addr := nat.
Inductive cell := CF | CT | CN (t : addr) (v : nat) (f : addr).
Record heap := { cells : list cell; table : list (bdd * addr) }.

Fixpoint struct_f (fuel : nat) (cs : list cell) (a : addr) : option bdd :=
  match fuel with 0 => None | S k =>
    match nth_error cs a with
    | Some CF => Some F | Some CT => Some T
    | Some (CN t v f) => match struct_f k cs t, struct_f k cs f with Some x, Some y => Some (Nd x v y) | _, _ => None end
    | None => None end end.
Definition struct (h : heap) (a : addr) := struct_f (S a) (cells h) a.

Fixpoint lookup (k : bdd) (tb : list (bdd * addr)) : option addr :=
  match tb with [] => None | (k', p) :: r => if bdd_eqb k' k then Some p else lookup k r end.

Definition h_new : heap := {| cells := [CT; CF]; table := [(T, 0); (F, 1)] |}.
Definition h_mk_const (h : heap) (b : bool) : option addr := lookup (if b then T else F) (table h).
Definition h_mk_choice (h : heap) (t : addr) (v : nat) (f : addr) : option (heap * addr) :=
  match struct h t, struct h f with
  | Some x, Some y =>
      if bdd_eqb x y then Some (h, t)
      else match lookup (Nd x v y) (table h) with
           | Some p => Some (h, p)
           | None => let p := length (cells h) in
                     Some ({| cells := cells h ++ [CN t v f]; table := (Nd x v y, p) :: table h |}, p)
           end
  | _, _ => None end.

Definition range (h : heap) (p : addr) := In p (map snd (table h)).

(** [inv_keys]: a table entry points at a cell with the key's structure; [inv_nodup]: one entry per structure (the sharing);
    [inv_closed]: the children of a handed-out node are handed out, so that the operations may recurse into them;
    [inv_leaves]: [mk_const] finds its leaf *)
Record Inv (h : heap) : Prop := {
  inv_acyclic : forall a t v f, nth_error (cells h) a = Some (CN t v f) -> t < a /\ f < a;
  inv_keys : forall k p, In (k, p) (table h) -> p < length (cells h) /\ struct h p = Some k;
  inv_nodup : NoDup (map fst (table h));
  inv_closed : forall k p t v f, In (k, p) (table h) -> nth_error (cells h) p = Some (CN t v f) -> range h t /\ range h f;
  inv_leaves : (exists p, In (T, p) (table h)) /\ (exists p, In (F, p) (table h))
}.

Lemma lookup_in k tb p : lookup k tb = Some p -> In (k, p) tb.
Proof.
  induction tb as [|[k' q] r IH]; simpl; [discriminate|].
  destruct (bdd_eqb_spec k' k); [intros H; inversion H; subst; auto|auto].
Qed.
Lemma lookup_none k tb : lookup k tb = None -> ~ In k (map fst tb).
Proof.
  induction tb as [|[k' q] r IH]; simpl; auto.
  destruct (bdd_eqb_spec k' k); [discriminate|]. intros H [E|Hin]; [congruence|]. apply IH; auto.
Qed.

Definition acyclic (cs : list cell) : Prop := forall a t v f, nth_error cs a = Some (CN t v f) -> t < a /\ f < a.

Lemma struct_f_below cs cs' : acyclic cs -> forall n m a, a < n -> a < m ->
  (forall b, b <= a -> nth_error cs' b = nth_error cs b) -> struct_f n cs' a = struct_f m cs a.
Proof.
  intros Hwf. induction n as [|n IH]; intros [|m] a Hn Hm Hcs; try lia. cbn [struct_f]. rewrite (Hcs a (le_n a)).
  destruct (nth_error cs a) as [[| |t v f]|] eqn:E; auto.
  destruct (Hwf _ _ _ _ E). rewrite (IH m t), (IH m f) by (lia || (intros b Hb; apply Hcs; lia)). reflexivity.
Qed.

Lemma struct_node h a t v f : acyclic (cells h) -> nth_error (cells h) a = Some (CN t v f) ->
  struct h a = match struct h t, struct h f with Some x, Some y => Some (Nd x v y) | _, _ => None end.
Proof.
  intros Hwf E. destruct (Hwf _ _ _ _ E). unfold struct at 1. cbn [struct_f]. rewrite E.
  rewrite (struct_f_below _ _ Hwf a (S t) t), (struct_f_below _ _ Hwf a (S f) f) by (lia || reflexivity). reflexivity.
Qed.

Lemma acyclic_snoc cs t v f : acyclic cs -> t < length cs -> f < length cs -> acyclic (cs ++ [CN t v f]).
Proof.
  intros Hwf Lt Lf a t0 v0 f0 Ha. destruct (Nat.lt_ge_cases a (length cs)) as [Hl|Hg].
  - rewrite nth_error_app1 in Ha by auto. eauto.
  - rewrite nth_error_app2 in Ha by auto. destruct (a - length cs) as [|[|d]] eqn:Ed; cbn in Ha; try discriminate Ha.
    inversion Ha; subst. lia.
Qed.

(** [valid h a x]: the pointer [a] was handed out by [h] and stands for the diagram [x];
    [ext h h']: every pointer handed out by [h] is still handed out by [h'], with the same structure *)
Definition valid (h : heap) (a : addr) (x : bdd) : Prop := range h a /\ struct h a = Some x.
Definition ext (h h' : heap) : Prop := forall q, range h q -> range h' q /\ struct h' q = struct h q.

Lemma ext_refl h : ext h h.
Proof. intros q Hq. exact (conj Hq eq_refl). Qed.
Lemma ext_trans h1 h2 h3 : ext h1 h2 -> ext h2 h3 -> ext h1 h3.
Proof. intros H12 H23 q Hq. destruct (H12 q Hq) as [R2 S2]. destruct (H23 q R2) as [R3 S3]. split; [exact R3|congruence]. Qed.
Lemma ext_valid h h' a x : ext h h' -> valid h a x -> valid h' a x.
Proof. intros He [Ra Sa]. destruct (He a Ra) as [R' S']. split; [exact R'|congruence]. Qed.

Lemma range_inv h p : Inv h -> range h p -> exists k, In (k, p) (table h) /\ p < length (cells h) /\ struct h p = Some k.
Proof.
  intros I Hp. apply in_map_iff in Hp. destruct Hp as ([k q] & <- & Hin). exists k. split; [exact Hin|apply (inv_keys h I _ _ Hin)].
Qed.
Lemma table_range k p h : In (k, p) (table h) -> range h p.
Proof. intros H. apply in_map_iff. exists (k, p). auto. Qed.

Lemma NoDup_fst_inj {A B} (l : list (A * B)) k p q : NoDup (map fst l) -> In (k, p) l -> In (k, q) l -> p = q.
Proof.
  induction l as [|[k' r] l IH]; [intros _ []|]. cbn [map fst]. intros ND. apply NoDup_cons_iff in ND. destruct ND as [Hk ND].
  intros [E1|H1] [E2|H2]; [congruence| | |auto].
  - inversion E1; subst. destruct (Hk (in_map fst _ _ H2)).
  - inversion E2; subst. destruct (Hk (in_map fst _ _ H1)).
Qed.

Theorem pointer_eq_is_structural_eq h p q : Inv h -> range h p -> range h q ->
  struct h p = struct h q -> p = q.
Proof.
  intros I Hp Hq E. destruct (range_inv h p I Hp) as (k1 & H1 & _ & S1). destruct (range_inv h q I Hq) as (k2 & H2 & _ & S2).
  assert (k1 = k2) by congruence. subst k2. exact (NoDup_fst_inj _ _ _ _ (inv_nodup h I) H1 H2).
Qed.

Theorem mk_choice_ok h t v f h' p x y : Inv h -> range h t -> range h f ->
  struct h t = Some x -> struct h f = Some y ->
  h_mk_choice h t v f = Some (h', p) ->
  Inv h' /\ range h' p /\ struct h' p = Some (mk x v y) /\
  (forall q, range h q -> range h' q /\ struct h' q = struct h q).
Proof.
  intros I Ht Hf Sx Sy H. unfold h_mk_choice in H. rewrite Sx, Sy in H. unfold mk.
  destruct (bdd_eqb x y) eqn:Exy; [injection H as <- <-; exact (conj I (conj Ht (conj Sx (ext_refl h))))|].
  destruct (lookup (Nd x v y) (table h)) as [p0|] eqn:L; injection H as <- <-.
  - apply lookup_in in L. pose proof (inv_keys h I _ _ L) as [_ S0]. exact (conj I (conj (table_range _ _ _ L) (conj S0 (ext_refl h)))).
  - (* a new cell at the end: nothing below it changes, and its children lie below it *)
    set (n := length (cells h)). set (h' := {| cells := cells h ++ [CN t v f]; table := (Nd x v y, n) :: table h |}).
    pose proof (range_inv h t I Ht) as (_ & _ & Lt & _). pose proof (range_inv h f I Hf) as (_ & _ & Lf & _).
    assert (Hwf := inv_acyclic h I : acyclic (cells h)).
    assert (Hold : forall q, q < n -> struct h' q = struct h q).
    { intros q Hq. apply (struct_f_below _ _ Hwf); [lia|lia|]. intros b Hb. apply nth_error_app1. fold n. lia. }
    assert (En : nth_error (cells h') n = Some (CN t v f)) by (cbn [h' cells]; rewrite nth_error_app2 by apply le_n; fold n; rewrite Nat.sub_diag; reflexivity).
    assert (Hlen : length (cells h') = S n) by apply last_length.
    assert (Hwf' : acyclic (cells h')) by (apply acyclic_snoc; assumption).
    assert (Hnew : struct h' n = Some (Nd x v y)) by (rewrite (struct_node h' n t v f Hwf' En), !Hold, Sx, Sy by assumption; reflexivity).
    assert (He : ext h h') by (intros q Hq; pose proof (range_inv h q I Hq) as (_ & _ & Lq & _); split; [right; exact Hq|apply Hold; exact Lq]).
    split; [|split; [left; reflexivity|split; [exact Hnew|exact He]]].
    constructor; [exact Hwf'| | | |].
    + intros k p [E|Hin].
      * injection E as <- <-. rewrite Hlen. exact (conj (Nat.lt_succ_diag_r n) Hnew).
      * pose proof (inv_keys h I _ _ Hin) as [Hp Sp]. rewrite Hlen, (Hold p Hp). exact (conj (Nat.lt_lt_succ_r _ _ Hp) Sp).
    + cbn [h' table map fst]. constructor; [apply lookup_none; exact L|apply (inv_nodup h I)].
    + intros k p t0 v0 f0 [E|Hin] Hc.
      * inversion E; subst. rewrite En in Hc. inversion Hc; subst. split; right; assumption.
      * pose proof (inv_keys h I _ _ Hin) as [Hp _]. cbn [h' cells] in Hc. rewrite nth_error_app1 in Hc by auto.
        pose proof (inv_closed h I _ _ _ _ _ Hin Hc) as [? ?]. split; right; assumption.
    + pose proof (inv_leaves h I) as [[pt Ht'] [pf Hf']]. split; [exists pt|exists pf]; right; assumption.
Qed.
Print Assumptions mk_choice_ok.

Inductive call : Type := CMk (t : addr) (v : nat) (f : addr) | CConst (b : bool).

Definition in_range (h : heap) (p : addr) : bool := existsb (Nat.eqb p) (map snd (table h)).
Lemma in_range_spec h p : in_range h p = true <-> range h p.
Proof. apply (existsb_eqb Nat.eqb Nat.eqb_spec). Qed.

(** a history of calls on the interface; it is refused ([None]) when a pointer argument was not handed out earlier *)
Fixpoint run (h : heap) (cs : list call) : option heap :=
  match cs with
  | [] => Some h
  | CConst b :: r => match h_mk_const h b with Some _ => run h r | None => None end
  | CMk t v f :: r =>
      if in_range h t && in_range h f then
        match h_mk_choice h t v f with Some (h', _) => run h' r | None => None end
      else None
  end.

Lemma Inv_new : Inv h_new.
Proof.
  constructor; cbn.
  - intros a t v f H. destruct a as [|[|a]]; cbn in H; try discriminate. destruct a; discriminate.
  - intros k p [H|[H|[]]]; inversion H; subst; cbn; auto.
  - constructor; [intros [E|[]]; discriminate E|constructor; [intros []|constructor]].
  - intros k p t v f [H|[H|[]]] Hc; inversion H; subst; cbn in Hc; discriminate.
  - split; [exists 0|exists 1]; auto.
Qed.

Theorem C13_histories : forall cs h h', Inv h -> run h cs = Some h' ->
  Inv h' /\ forall q, range h q -> range h' q /\ struct h' q = struct h q.
Proof.
  induction cs as [|c cs IH]; intros h h' I H; cbn [run] in H.
  - inversion H; subst. split; [exact I|apply ext_refl].
  - destruct c as [t v f|b].
    + destruct (in_range h t && in_range h f) eqn:E; [|discriminate]. apply andb_prop in E. destruct E as [Et Ef].
      apply in_range_spec in Et. apply in_range_spec in Ef.
      destruct (h_mk_choice h t v f) as [[h1 p]|] eqn:Em; [|discriminate].
      destruct (range_inv h t I Et) as (x & _ & _ & Sx). destruct (range_inv h f I Ef) as (y & _ & _ & Sy).
      destruct (mk_choice_ok h t v f h1 p x y I Et Ef Sx Sy Em) as (I1 & _ & _ & Hold).
      destruct (IH h1 h' I1 H) as (I' & Hold'). split; [exact I'|exact (ext_trans _ _ _ Hold Hold')].
    + destruct (h_mk_const h b); [|discriminate]. apply IH; auto.
Qed.

Corollary C13_sharing cs h' p q : run h_new cs = Some h' -> range h' p -> range h' q ->
  struct h' p = struct h' q -> p = q.
Proof.
  intros H. destruct (C13_histories cs h_new h' Inv_new H) as [I' _]. apply pointer_eq_is_structural_eq. exact I'.
Qed.
Print Assumptions C13_sharing.
