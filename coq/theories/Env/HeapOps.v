(** C13: the operations of src/bdd.rs as CLIENTS of the unique-table ADT: not, and / or (one generic recursion), exists_impl,
    and the programs [prog] over them that make up the other connectives, the quantifiers over variable lists and the counting
    cascade.  Each is written over addresses the way the source writes it over Rc pointers (read the cells of the operands,
    recurse, finish with mk_choice / mk_const) and is proved to (a) keep the table invariant, (b) leave every pointer handed out
    earlier valid and unchanged, (c) return a pointer whose structure is the tree model's result on the operands' structures.
    Hence the tree model of C02-C07 is a sound abstraction of the pointer-level computation for these operations. *)
From Coq Require Import List Bool Lia PeanoNat ZArith.
Import ListNotations.
From Rsbdd Require Import Core.Bdd Core.Ops Core.OpsFacts Env.Heap.

(** [okres h r (h', p)] is (a)-(c) above: [Inv h'], [valid h' p r] and [ext h h'] spelled out ([okres_iff]) *)
Definition okres (h : heap) (r : bdd) (res : heap * addr) : Prop :=
  let (h', p) := res in
  Inv h' /\ range h' p /\ struct h' p = Some r /\ (forall q, range h q -> range h' q /\ struct h' q = struct h q).

Lemma okres_refl h p r : Inv h -> range h p -> struct h p = Some r -> okres h r (h, p).
Proof. intros I R S. exact (conj I (conj R (conj S (ext_refl h)))). Qed.

Lemma okres_iff h r h' p : okres h r (h', p) <-> Inv h' /\ valid h' p r /\ ext h h'.
Proof. unfold okres, valid, ext. tauto. Qed.

Lemma okres_trans h h1 r (res : heap * addr) :
  (forall q, range h q -> range h1 q /\ struct h1 q = struct h q) -> okres h1 r res -> okres h r res.
Proof.
  destruct res as [h' p]. rewrite !okres_iff. intros E (I' & V & E'). exact (conj I' (conj V (ext_trans _ _ _ E E'))).
Qed.

(** reading the cell of a handed-out pointer: a leaf cell stands for that constant, a node cell for a node over what its
    (handed-out) children stand for *)
Inductive cview (h : heap) : cell -> bdd -> Prop :=
| CVF : cview h CF F
| CVT : cview h CT T
| CVN t v f xt xf : valid h t xt -> valid h f xf -> cview h (CN t v f) (Nd xt v xf).

Lemma valid_cell h a x : Inv h -> valid h a x -> exists c, nth_error (cells h) a = Some c /\ cview h c x.
Proof.
  intros I [Ra Sa]. destruct (range_inv h a I Ra) as (k & Hin & _).
  pose proof Sa as Sl. unfold struct in Sl. cbn [struct_f] in Sl.
  destruct (nth_error (cells h) a) as [[| |t v f]|] eqn:E; [| | |discriminate Sl]; eexists; (split; [reflexivity|]).
  - injection Sl as <-. constructor.
  - injection Sl as <-. constructor.
  - rewrite (struct_node h a t v f (inv_acyclic h I) E) in Sa. destruct (inv_closed h I _ _ _ _ _ Hin E) as [Rt Rf].
    destruct (struct h t) as [xt|] eqn:St; [|discriminate]. destruct (struct h f) as [xf|] eqn:Sf; [|discriminate].
    injection Sa as <-. constructor; split; assumption.
Qed.

Lemma mk_const_ok h b : Inv h -> exists p, h_mk_const h b = Some p /\ range h p /\ struct h p = Some (bconst b).
Proof.
  intros I. unfold h_mk_const.
  destruct (lookup (if b then T else F) (table h)) as [p|] eqn:L.
  - exists p. apply lookup_in in L. split; [reflexivity|]. split; [exact (table_range _ _ _ L)|].
    destruct (inv_keys h I _ _ L) as [_ S]. destruct b; exact S.
  - exfalso. apply lookup_none in L. apply L. destruct (inv_leaves h I) as [[pt Ht] [pf Hf]].
    apply in_map_iff. destruct b; [exists (T, pt)|exists (F, pf)]; auto.
Qed.

Lemma mk_choice_total h t v f x y : struct h t = Some x -> struct h f = Some y -> exists res, h_mk_choice h t v f = Some res.
Proof. intros Sx Sy. unfold h_mk_choice. rewrite Sx, Sy. destruct (bdd_eqb x y); [eauto|]. destruct (lookup _ _); eauto. Qed.

(** Computations that pass the table along.  [answers h m r P]: if [m], started in table [h], answers, then with a pointer to
    [r] in a table that extends [h]; and it does answer whenever [P] holds.  [sound] is the first half alone.  The operations
    below are written as nested matches; these are [bind2] (the second computation runs in the table the first left, the rest
    in the table the second left) and the plain bind of [answers_bind] by conversion, which is how [finish_choice] and
    [answers_bind2] apply to them. *)
Definition answers (h : heap) (m : option (heap * addr)) (r : bdd) (P : Prop) : Prop :=
  (forall res, m = Some res -> okres h r res) /\ (P -> exists res, m = Some res).
Definition sound (h : heap) (m : option (heap * addr)) (r : bdd) : Prop := answers h m r False.
Definition bind2 (m1 : option (heap * addr)) (m2 : heap -> option (heap * addr)) (K : heap -> addr -> addr -> option (heap * addr)) :=
  match m1 with
  | Some (h1, a) => match m2 h1 with Some (h2, b) => K h2 a b | None => None end
  | None => None
  end.

Lemma answers_weaken h m r (P P' : Prop) : (P' -> P) -> answers h m r P -> answers h m r P'.
Proof. intros HP [Hs Ht]. split; auto. Qed.
Lemma answers_sound h m r (P : Prop) : answers h m r P -> sound h m r.
Proof. apply answers_weaken. intros []. Qed.
Lemma answers_none h r (P : Prop) : ~ P -> answers h None r P.
Proof. intros HP. split; [intros res H; discriminate H|intros H; destruct (HP H)]. Qed.
Lemma answers_ret h p r (P : Prop) : Inv h -> valid h p r -> answers h (Some (h, p)) r P.
Proof. intros I [R S]. split; [intros res E; injection E as <-; apply okres_refl; assumption|eauto]. Qed.

Lemma answers_bind h m (k : heap -> addr -> option (heap * addr)) x r (P : Prop) :
  answers h m x P -> (forall h1 a, Inv h1 -> ext h h1 -> valid h1 a x -> answers h1 (k h1 a) r P) ->
  answers h (match m with Some (h1, a) => k h1 a | None => None end) r P.
Proof.
  intros [Sm Tm] Hk. destruct m as [[h1 a]|]; [|split; [intros res H; discriminate H|exact Tm]].
  destruct (proj1 (okres_iff _ _ _ _) (Sm _ eq_refl)) as (I1 & V1 & E1). destruct (Hk h1 a I1 E1 V1) as [Sk Tk].
  split; [intros res H; exact (okres_trans h h1 r res E1 (Sk res H))|exact Tk].
Qed.

Lemma answers_bind2 h m1 m2 K x1 x2 r (P : Prop) :
  answers h m1 x1 P -> (forall h1, Inv h1 -> ext h h1 -> answers h1 (m2 h1) x2 P) ->
  (forall h2 a b, Inv h2 -> ext h h2 -> valid h2 a x1 -> valid h2 b x2 -> answers h2 (K h2 a b) r P) ->
  answers h (bind2 m1 m2 K) r P.
Proof.
  intros H1 H2 HK. apply (answers_bind h m1 _ x1 r P H1). intros h1 a I1 E1 Va.
  apply (answers_bind h1 (m2 h1) _ x2 r P (H2 h1 I1 E1)). intros h2 b I2 E2 Vb.
  exact (HK h2 a b I2 (ext_trans _ _ _ E1 E2) (ext_valid _ _ _ _ E2 Va) Vb).
Qed.

Lemma const_answers h c (P : Prop) : Inv h ->
  answers h (match h_mk_const h c with Some p => Some (h, p) | None => None end) (bconst c) P.
Proof. intros I. destruct (mk_const_ok h c I) as (p & -> & V). apply answers_ret; assumption. Qed.

Lemma choice_answers h t v f x y (P : Prop) : Inv h -> valid h t x -> valid h f y -> answers h (h_mk_choice h t v f) (mk x v y) P.
Proof.
  intros I [Rt St] [Rf Sf]. split; [|intros _; exact (mk_choice_total h t v f x y St Sf)].
  intros [h' p] H. exact (mk_choice_ok h t v f h' p x y I Rt Rf St Sf H).
Qed.

(** the common shape of the recursions: the two children in turn, then mk_choice of the two results *)
Lemma finish_choice h m1 m2 v x1 x2 (P : Prop) :
  answers h m1 x1 P -> (forall h1, Inv h1 -> ext h h1 -> answers h1 (m2 h1) x2 P) ->
  answers h (bind2 m1 m2 (fun h2 a b => h_mk_choice h2 a v b)) (mk x1 v x2) P.
Proof. intros H1 H2. apply (answers_bind2 h m1 m2 _ x1 x2 _ P H1 H2). intros h2 a b I2 _. apply choice_answers, I2. Qed.

Fixpoint h_not (fuel : nat) (h : heap) (a : addr) : option (heap * addr) :=
  match fuel with
  | 0 => None
  | S k =>
    match nth_error (cells h) a with
    | Some CF => match h_mk_const h true with Some p => Some (h, p) | None => None end
    | Some CT => match h_mk_const h false with Some p => Some (h, p) | None => None end
    | Some (CN t v f) =>
        match h_not k h t with
        | Some (h1, t') =>
            match h_not k h1 f with
            | Some (h2, f') => h_mk_choice h2 t' v f'
            | None => None
            end
        | None => None
        end
    | None => None
    end
  end.

Lemma h_not_spec : forall fuel h a x, Inv h -> valid h a x -> answers h (h_not fuel h a) (bnot x) (height x < fuel).
Proof.
  induction fuel as [|k IH]; intros h a x I Va; [apply answers_none; lia|]. cbn [h_not].
  destruct (valid_cell h a x I Va) as (c & -> & [| |t v f xt xf Vt Vf]).
  - apply (const_answers h true), I.
  - apply (const_answers h false), I.
  - cbn [bnot]. apply finish_choice; try intros h1 I1 E1;
      (eapply answers_weaken; [|apply IH; eauto using ext_valid]; cbn [height]; lia).
Qed.

Theorem h_not_ok : forall fuel h a x res, Inv h -> range h a -> struct h a = Some x ->
  h_not fuel h a = Some res -> okres h (bnot x) res.
Proof. intros fuel h a x res I Ra Sa. exact (proj1 (h_not_spec fuel h a x I (conj Ra Sa)) res). Qed.

Theorem h_not_total : forall fuel h a x, Inv h -> range h a -> struct h a = Some x -> height x < fuel ->
  exists res, h_not fuel h a = Some res.
Proof. intros fuel h a x I Ra Sa. exact (proj2 (h_not_spec fuel h a x I (conj Ra Sa))). Qed.

Inductive leafact := LConst (b : bool) | LLeft | LRight.
(** what the source does when one operand is a leaf: for [and]: (F,_) | (_,F) -> const false, (T,_) -> b, (_,T) -> a *)
Definition and_leaf (ca cb : cell) : option leafact :=
  match ca, cb with
  | CF, _ => Some (LConst false) | _, CF => Some (LConst false)
  | CT, _ => Some LRight | _, CT => Some LLeft
  | _, _ => None
  end.
Definition or_leaf (ca cb : cell) : option leafact :=
  match ca, cb with
  | CT, _ => Some (LConst true) | _, CT => Some (LConst true)
  | CF, _ => Some LRight | _, CF => Some LLeft
  | _, _ => None
  end.

(** [and] (bdd.rs:200) and [or] (bdd.rs:225): one recursion, the leaf cases being the parameter [leaf] *)
Fixpoint h_bin (leaf : cell -> cell -> option leafact) (fuel : nat) (h : heap) (a b : addr) : option (heap * addr) :=
  match fuel with
  | 0 => None
  | S k =>
    match nth_error (cells h) a, nth_error (cells h) b with
    | Some ca, Some cb =>
        match leaf ca cb with
        | Some (LConst c) => match h_mk_const h c with Some p => Some (h, p) | None => None end
        | Some LLeft => Some (h, a)
        | Some LRight => Some (h, b)
        | None =>
            match ca, cb with
            | CN at_ va af, CN bt vb bf =>
                let go x1 y1 x2 y2 v :=
                  match h_bin leaf k h x1 y1 with
                  | Some (h1, t') => match h_bin leaf k h1 x2 y2 with
                                     | Some (h2, f') => h_mk_choice h2 t' v f'
                                     | None => None end
                  | None => None end in
                if va <? vb then go at_ b af b va
                else if vb <? va then go bt a bf a vb
                else go at_ bt af bf va
            | _, _ => None
            end
        end
    | _, _ => None
    end
  end.
Definition h_and := h_bin and_leaf.
Definition h_or := h_bin or_leaf.

(** what [leaf] must satisfy for [h_bin leaf] to compute [op]: on operands of which one is a leaf, [leaf] names the action whose
    result is [op x y] (and declines exactly when both are nodes); on two nodes [op] is the Shannon step on the smaller variable *)
Definition leaf_spec (leaf : cell -> cell -> option leafact) (op : bdd -> bdd -> bdd) : Prop :=
  (forall x y ca cb, (ca = CF /\ x = F \/ ca = CT /\ x = T \/ exists t v f xt xf, ca = CN t v f /\ x = Nd xt v xf) ->
                     (cb = CF /\ y = F \/ cb = CT /\ y = T \/ exists t v f yt yf, cb = CN t v f /\ y = Nd yt v yf) ->
     match leaf ca cb with
     | Some (LConst c) => op x y = bconst c
     | Some LLeft => op x y = x
     | Some LRight => op x y = y
     | None => exists at_ va af bt vb bf, x = Nd at_ va af /\ y = Nd bt vb bf
     end) /\
  (forall at_ va af bt vb bf, op (Nd at_ va af) (Nd bt vb bf) =
     if va <? vb then mk (op at_ (Nd bt vb bf)) va (op af (Nd bt vb bf))
     else if vb <? va then mk (op bt (Nd at_ va af)) vb (op bf (Nd at_ va af))
     else mk (op at_ bt) va (op af bf)).

Lemma leaf_specs : leaf_spec and_leaf band /\ leaf_spec or_leaf bor.
Proof.
  split; (split; [|intros; first [exact (band_unfold _ _)|exact (bor_unfold _ _)]]); intros x y ca cb Ha Hb;
    destruct Ha as [[-> ->]|[[-> ->]|(t & v & f & xt & xf & -> & ->)]], Hb as [[-> ->]|[[-> ->]|(t' & v' & f' & yt & yf & -> & ->)]];
    cbn [and_leaf or_leaf]; try reflexivity; do 6 eexists; split; reflexivity.
Qed.
Lemma and_leaf_spec : leaf_spec and_leaf band.
Proof. exact (proj1 leaf_specs). Qed.
Lemma or_leaf_spec : leaf_spec or_leaf bor.
Proof. exact (proj2 leaf_specs). Qed.

Lemma cview_shape h c x : cview h c x ->
  c = CF /\ x = F \/ c = CT /\ x = T \/ exists t v f xt xf, c = CN t v f /\ x = Nd xt v xf.
Proof. destruct 1; eauto 10. Qed.
Lemma cview_node h c xt v xf : cview h c (Nd xt v xf) -> exists t f, c = CN t v f /\ valid h t xt /\ valid h f xf.
Proof. inversion 1; eauto. Qed.

Section Bin.
  Variable leaf : cell -> cell -> option leafact.
  Variable op : bdd -> bdd -> bdd.
  Hypothesis Hleaf : leaf_spec leaf op.

  (** the pointer-level recursion computes [op], and with fuel above the sum of the operands' heights it answers: the
      "unsupported match" arm of the source is never reached *)
  Theorem h_bin_spec : forall fuel h a b x y, Inv h -> valid h a x -> valid h b y ->
    answers h (h_bin leaf fuel h a b) (op x y) (height x + height y < fuel).
  Proof.
    destruct Hleaf as [HL HN].
    induction fuel as [|k IH]; intros h a b x y I Va Vb; [apply answers_none; lia|].
    destruct (valid_cell h a x I Va) as (ca & Ea & Ca). destruct (valid_cell h b y I Vb) as (cb & Eb & Cb).
    pose proof (HL x y ca cb (cview_shape _ _ _ Ca) (cview_shape _ _ _ Cb)) as HLs.
    (* the body of h_bin is brought in only once the case is settled *)
    destruct (leaf ca cb) as [[c| |]|] eqn:El; [rewrite HLs; cbn [h_bin]; rewrite Ea, Eb, El ..|].
    - apply const_answers, I.
    - apply answers_ret; assumption.
    - apply answers_ret; assumption.
    - destruct HLs as (xat & va & xaf & xbt & vb & xbf & -> & ->).
      destruct (cview_node _ _ _ _ _ Ca) as (at_ & af & -> & Vat & Vaf). destruct (cview_node _ _ _ _ _ Cb) as (bt & bf & -> & Vbt & Vbf).
      rewrite HN. cbn [h_bin]. rewrite Ea, Eb, El. cbv beta zeta.
      (* whichever variable comes first, both recursive calls are on lower operands, valid in the table they run in *)
      destruct (va <? vb); [|destruct (vb <? va)]; apply finish_choice; try intros h1 I1 E1;
        (eapply answers_weaken; [|apply IH; eauto using ext_valid]; cbn [height]; lia).
  Qed.

  Theorem h_bin_ok : forall fuel h a b x y res, Inv h -> range h a -> range h b ->
    struct h a = Some x -> struct h b = Some y -> h_bin leaf fuel h a b = Some res -> okres h (op x y) res.
  Proof. intros fuel h a b x y res I Ra Rb Sa Sb. exact (proj1 (h_bin_spec fuel h a b x y I (conj Ra Sa) (conj Rb Sb)) res). Qed.
  Theorem h_bin_total : forall fuel h a b x y, Inv h -> range h a -> range h b ->
    struct h a = Some x -> struct h b = Some y -> height x + height y < fuel -> exists res, h_bin leaf fuel h a b = Some res.
  Proof. intros fuel h a b x y I Ra Rb Sa Sb. exact (proj2 (h_bin_spec fuel h a b x y I (conj Ra Sa) (conj Rb Sb))). Qed.
End Bin.

Theorem h_and_ok fuel h a b x y res : Inv h -> range h a -> range h b ->
  struct h a = Some x -> struct h b = Some y -> h_and fuel h a b = Some res -> okres h (band x y) res.
Proof. exact (h_bin_ok and_leaf band and_leaf_spec fuel h a b x y res). Qed.
Theorem h_and_total fuel h a b x y : Inv h -> range h a -> range h b -> struct h a = Some x -> struct h b = Some y ->
  height x + height y < fuel -> exists res, h_and fuel h a b = Some res.
Proof. exact (h_bin_total and_leaf band and_leaf_spec fuel h a b x y). Qed.
Theorem h_or_ok fuel h a b x y res : Inv h -> range h a -> range h b ->
  struct h a = Some x -> struct h b = Some y -> h_or fuel h a b = Some res -> okres h (bor x y) res.
Proof. exact (h_bin_ok or_leaf bor or_leaf_spec fuel h a b x y res). Qed.

(** exists_impl (bdd.rs:404-414): leaves are returned as they are, the quantified test becomes or(t, f).  The fuel handed to
    [h_or] here (and by [h_run], [h_model] to their sub-operations) is arbitrary: of these only soundness is proved. *)
Fixpoint h_ex1 (fuel : nat) (x : nat) (h : heap) (a : addr) : option (heap * addr) :=
  match fuel with
  | 0 => None
  | S k =>
    match nth_error (cells h) a with
    | Some CF | Some CT => Some (h, a)
    | Some (CN t v f) =>
        if Nat.eqb v x then h_or (S k) h t f
        else match h_ex1 k x h t with
             | Some (h1, t') => match h_ex1 k x h1 f with
                                | Some (h2, f') => h_mk_choice h2 t' v f'
                                | None => None end
             | None => None end
    | None => None
    end
  end.
Lemma h_ex1_sound x : forall fuel h a sx, Inv h -> valid h a sx -> sound h (h_ex1 fuel x h a) (bex1 x sx).
Proof.
  induction fuel as [|k IH]; intros h a sx I Va; [apply answers_none; auto|]. cbn [h_ex1].
  destruct (valid_cell h a sx I Va) as (c & -> & C). destruct C as [| |t v f xt xf Vt Vf]; [apply answers_ret; assumption ..|].
  cbn [bex1]. destruct (Nat.eqb v x).
  - exact (answers_sound _ _ _ _ (h_bin_spec _ _ or_leaf_spec (S k) h t f xt xf I Vt Vf)).
  - apply finish_choice; [exact (IH h t xt I Vt)|]. intros h1 I1 E1. exact (IH h1 f xf I1 (ext_valid _ _ _ _ E1 Vf)).
Qed.
Theorem h_ex1_ok x : forall fuel h a sx res, Inv h -> range h a -> struct h a = Some sx ->
  h_ex1 fuel x h a = Some res -> okres h (bex1 x sx) res.
Proof. intros fuel h a sx res I Ra Sa. exact (proj1 (h_ex1_sound x fuel h a sx I (conj Ra Sa)) res). Qed.

(** compositions: every connective of bdd.rs, and the quantifiers over variable lists, are programs over
    not / and / or / exists_impl / var / const and the arguments *)
Inductive prog : Type :=
| PArg (i : nat) | PConst (b : bool) | PVar (v : nat)
| PNot (p : prog) | PAnd (p q : prog) | POr (p q : prog) | PEx1 (x : nat) (p : prog).

(** pointer level: operands are evaluated left to right, as Rust evaluates call arguments *)
Fixpoint h_run (fuel : nat) (h : heap) (args : list addr) (p : prog) : option (heap * addr) :=
  match p with
  | PArg i => match nth_error args i with Some a => Some (h, a) | None => None end
  | PConst b => match h_mk_const h b with Some a => Some (h, a) | None => None end
  | PVar v => match h_mk_const h true, h_mk_const h false with
              | Some t, Some f => h_mk_choice h t v f
              | _, _ => None end
  | PNot q => match h_run fuel h args q with Some (h1, a) => h_not fuel h1 a | None => None end
  | PAnd q r => match h_run fuel h args q with
                | Some (h1, a) => match h_run fuel h1 args r with
                                  | Some (h2, b) => h_and fuel h2 a b
                                  | None => None end
                | None => None end
  | POr q r => match h_run fuel h args q with
               | Some (h1, a) => match h_run fuel h1 args r with
                                 | Some (h2, b) => h_or fuel h2 a b
                                 | None => None end
               | None => None end
  | PEx1 x q => match h_run fuel h args q with Some (h1, a) => h_ex1 fuel x h1 a | None => None end
  end.
(** tree level: the same program over the tree model's operations of Core/Ops.v, on the operands' structures *)
Fixpoint t_run (xs : list bdd) (p : prog) : bdd :=
  match p with
  | PArg i => nth i xs F
  | PConst b => bconst b
  | PVar v => bvar v
  | PNot q => bnot (t_run xs q)
  | PAnd q r => band (t_run xs q) (t_run xs r)
  | POr q r => bor (t_run xs q) (t_run xs r)
  | PEx1 x q => bex1 x (t_run xs q)
  end.

Definition valid_args (h : heap) (args : list addr) (xs : list bdd) : Prop :=
  Forall2 (fun a x => range h a /\ struct h a = Some x) args xs.
Lemma valid_args_keep h h1 args xs : (forall q, range h q -> range h1 q /\ struct h1 q = struct h q) ->
  valid_args h args xs -> valid_args h1 args xs.
Proof. intros E H. induction H as [|a x l l' V _ IH]; constructor; [exact (ext_valid _ _ _ _ E V)|exact IH]. Qed.
Lemma valid_args_nth h args xs i a : valid_args h args xs -> nth_error args i = Some a ->
  range h a /\ struct h a = Some (nth i xs F).
Proof.
  intros H. revert i. induction H as [|a0 x l l' Hax _ IH]; intros [|i] E; cbn in *; try discriminate.
  - inversion E; subst. exact Hax.
  - apply IH. exact E.
Qed.

Lemma h_run_sound : forall p fuel h args xs, Inv h -> valid_args h args xs -> sound h (h_run fuel h args p) (t_run xs p).
Proof.
  induction p as [i|b|v|q IHq|q IHq r IHr|q IHq r IHr|x q IHq]; intros fuel h args xs I Hv; cbn [h_run t_run].
  - destruct (nth_error args i) as [a|] eqn:E; [|apply answers_none; auto]. apply answers_ret; [exact I|exact (valid_args_nth h args xs i a Hv E)].
  - apply const_answers, I.
  - destruct (mk_const_ok h true I) as (pt & -> & Vt). destruct (mk_const_ok h false I) as (pf & -> & Vf).
    exact (choice_answers h pt v pf T F False I Vt Vf).
  - apply (answers_bind h _ _ (t_run xs q)); [apply IHq; assumption|].
    intros h1 a I1 _ Va. exact (answers_sound _ _ _ _ (h_not_spec fuel h1 a _ I1 Va)).
  - apply (answers_bind2 h _ _ _ (t_run xs q) (t_run xs r)); [apply IHq; assumption|intros h1 I1 E1; apply IHr; [assumption|exact (valid_args_keep _ _ _ _ E1 Hv)]|].
    intros h2 a b I2 _ Va Vb. exact (answers_sound _ _ _ _ (h_bin_spec _ _ and_leaf_spec fuel h2 a b _ _ I2 Va Vb)).
  - apply (answers_bind2 h _ _ _ (t_run xs q) (t_run xs r)); [apply IHq; assumption|intros h1 I1 E1; apply IHr; [assumption|exact (valid_args_keep _ _ _ _ E1 Hv)]|].
    intros h2 a b I2 _ Va Vb. exact (answers_sound _ _ _ _ (h_bin_spec _ _ or_leaf_spec fuel h2 a b _ _ I2 Va Vb)).
  - apply (answers_bind h _ _ (t_run xs q)); [apply IHq; assumption|].
    intros h1 a I1 _ Va. exact (h_ex1_sound x fuel h1 a _ I1 Va).
Qed.
Theorem h_run_ok : forall p fuel h args xs res, Inv h -> valid_args h args xs ->
  h_run fuel h args p = Some res -> okres h (t_run xs p) res.
Proof. intros p fuel h args xs res I Hv. exact (proj1 (h_run_sound p fuel h args xs I Hv) res). Qed.

(** the connectives of bdd.rs:264-300 as programs, argument for argument ([PVar] is var, bdd.rs:303-305) *)
Definition p_implies (a b : prog) : prog := POr (PNot a) b.
Definition p_ite (a b c : prog) : prog := PAnd (p_implies a b) (p_implies (PNot a) c).
Definition p_eq (a b : prog) : prog := PAnd (p_implies a b) (p_implies b a).
Definition p_xor (a b : prog) : prog := POr (PAnd (PNot a) b) (PAnd a (PNot b)).
Definition p_nor (a b : prog) : prog := PAnd (PNot a) (PNot b).
Definition p_nand (a b : prog) : prog := PNot (PAnd a b).
(** counting (bdd.rs:307-325): cmp_count is a cascade of ite over the operand list *)
Fixpoint p_cmp_count (bs : list prog) (n : Z) (cmp : Z -> bool) : prog :=
  match bs with
  | [] => PConst (cmp n)
  | x :: rest => p_ite x (p_cmp_count rest (n - 1)%Z cmp) (p_cmp_count rest n cmp)
  end.
Lemma t_run_cmp_count xs cmp : forall bs n, t_run xs (p_cmp_count bs n cmp) = cmp_count (map (t_run xs) bs) n cmp.
Proof.
  induction bs as [|x rest IH]; intros n; cbn [p_cmp_count map cmp_count]; [reflexivity|].
  unfold p_ite, p_implies. cbn [t_run]. rewrite !IH. reflexivity.
Qed.
(** exists / all over a variable list (bdd.rs:392-419): exists_impl(first, exists(rest, b)); all = not exists not *)
Fixpoint p_exists (vs : list nat) (b : prog) : prog := match vs with [] => b | x :: r => PEx1 x (p_exists r b) end.
Definition p_all (vs : list nat) (b : prog) : prog := PNot (p_exists vs (PNot b)).
Lemma t_run_quantifiers xs vs b : t_run xs (p_exists vs b) = bex vs (t_run xs b) /\ t_run xs (p_all vs b) = ball vs (t_run xs b).
Proof.
  assert (H : forall c, t_run xs (p_exists vs c) = bex vs (t_run xs c)).
  { induction vs as [|x r IH]; intros c; cbn [p_exists bex t_run]; [reflexivity|]. rewrite IH. reflexivity. }
  split; [apply H|]. unfold p_all, ball. cbn [t_run]. rewrite H. reflexivity.
Qed.
Lemma t_run_connectives xs a b c :
  t_run xs (p_implies a b) = bimplies (t_run xs a) (t_run xs b) /\
  t_run xs (p_ite a b c) = bite (t_run xs a) (t_run xs b) (t_run xs c) /\
  t_run xs (p_eq a b) = beq (t_run xs a) (t_run xs b) /\
  t_run xs (p_xor a b) = bxor (t_run xs a) (t_run xs b) /\
  t_run xs (p_nor a b) = bnor (t_run xs a) (t_run xs b) /\
  t_run xs (p_nand a b) = bnand (t_run xs a) (t_run xs b).
Proof. unfold p_ite, p_eq, p_xor, p_nor, p_nand, p_implies, bite, beq, bxor, bnor, bnand, bimplies. cbn [t_run]. repeat split. Qed.

(** a small run: in the empty environment build x0, x1 (mk_choice), then their and and its not, twice; the results' structures are
    the tree model's, and not(not(x0 & x1)) is the very pointer of x0 & x1 *)
Example heap_ops_instance :
  match h_mk_choice h_new 0 0 1 with
  | Some (h1, x0) =>
    match h_mk_choice h1 0 1 1 with
    | Some (h2, x1) =>
      match h_and 10 h2 x0 x1 with
      | Some (h3, c) =>
        match h_not 10 h3 c with
        | Some (h4, nc) =>
          match h_not 10 h4 nc with
          | Some (h5, nnc) => struct h5 c = Some (band (bvar 0) (bvar 1)) /\ struct h5 nc = Some (bnot (band (bvar 0) (bvar 1))) /\ nnc = c
          | None => False end
        | None => False end
      | None => False end
    | None => False end
  | None => False end.
Proof. vm_compute. repeat split; reflexivity. Qed.
Print Assumptions h_not_ok. Print Assumptions h_and_ok. Print Assumptions h_or_ok. Print Assumptions h_run_ok.
