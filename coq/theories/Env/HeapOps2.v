From Coq Require Import List Bool PeanoNat.
Import ListNotations.
From Rsbdd Require Import Core.Bdd Core.Ops Core.OpsFacts Env.Heap Env.HeapOps.

(** the tests `x != self.mk_const(false)`, [is_const], [is_true] of the source, by reading the cell: on a handed-out pointer
    the cell is a leaf exactly when the structure is ([cell_is_spec]) *)
Definition cell_is_false (h : heap) (p : addr) : bool := match nth_error (cells h) p with Some CF => true | _ => false end.
Definition cell_is_const (h : heap) (p : addr) : bool := match nth_error (cells h) p with Some CF | Some CT => true | _ => false end.
Definition cell_is_true (h : heap) (p : addr) : bool := match nth_error (cells h) p with Some CT => true | _ => false end.

Lemma cell_is_spec h p x : Inv h -> valid h p x ->
  cell_is_false h p = bdd_eqb x F /\ cell_is_const h p = is_const x /\ cell_is_true h p = is_true x.
Proof.
  intros I V. unfold cell_is_false, cell_is_const, cell_is_true.
  destruct (valid_cell h p x I V) as (c & -> & [| |t v f xt xf _ _]); repeat split.
Qed.

(** model (bdd.rs:444-459): each arm of the source (and(lhs, var), and(not var, rhs), mk_const(false)) is a [prog] over [lhs; rhs] *)
Fixpoint h_model (fuel : nat) (h : heap) (a : addr) : option (heap * addr) :=
  match fuel with
  | 0 => None
  | S k =>
    match nth_error (cells h) a with
    | Some CF | Some CT => Some (h, a)
    | Some (CN t v f) =>
        match h_model k h t with
        | Some (h1, lhs) =>
            match h_model k h1 f with
            | Some (h2, rhs) =>
                if negb (cell_is_false h2 lhs) then h_run (S k) h2 [lhs; rhs] (PAnd (PArg 0) (PVar v))
                else if negb (cell_is_false h2 rhs) then h_run (S k) h2 [lhs; rhs] (PAnd (PNot (PVar v)) (PArg 1))
                else h_run (S k) h2 [lhs; rhs] (PConst false)
            | None => None end
        | None => None end
    | None => None
    end
  end.

Lemma h_model_sound : forall fuel h a x, Inv h -> valid h a x -> sound h (h_model fuel h a) (bmodel x).
Proof.
  induction fuel as [|k IH]; intros h a x I Va; [apply answers_none; auto|]. cbn [h_model].
  destruct (valid_cell h a x I Va) as (c & -> & C). destruct C as [| |t v f xt xf Vt Vf]; [apply answers_ret; assumption ..|].
  cbn [bmodel]. apply (answers_bind2 h _ _ _ (bmodel xt) (bmodel xf)); [exact (IH h t xt I Vt)| |].
  - intros h1 I1 E1. exact (IH h1 f xf I1 (ext_valid _ _ _ _ E1 Vf)).
  - intros h2 lhs rhs I2 _ Vl Vr. destruct (cell_is_spec h2 lhs _ I2 Vl) as (-> & _), (cell_is_spec h2 rhs _ I2 Vr) as (-> & _).
    assert (Hv : valid_args h2 [lhs; rhs] [bmodel xt; bmodel xf]) by (constructor; [exact Vl|constructor; [exact Vr|constructor]]).
    (* the [t_run] of each arm's [prog] is, by computation, the arm of [bmodel] *)
    destruct (negb (bdd_eqb (bmodel xt) F)); [|destruct (negb (bdd_eqb (bmodel xf) F))]; exact (h_run_sound _ (S k) h2 _ _ I2 Hv).
Qed.
Theorem h_model_ok : forall fuel h a x res, Inv h -> range h a -> struct h a = Some x ->
  h_model fuel h a = Some res -> okres h (bmodel x) res.
Proof. intros fuel h a x res I Ra Sa. exact (proj1 (h_model_sound fuel h a x I (conj Ra Sa)) res). Qed.

(** retain_choice_bottom_up (bdd.rs:481-518), for a True / False filter *)
Fixpoint h_retain (fuel : nat) (filt : bool) (h : heap) (a : addr) : option (heap * addr) :=
  match fuel with
  | 0 => None
  | S k =>
    match nth_error (cells h) a with
    | Some CF | Some CT => Some (h, a)
    | Some (CN l v r) =>
        match h_retain k filt h l with
        | Some (h1, l') =>
            match h_retain k filt h1 r with
            | Some (h2, r') =>
                if cell_is_const h2 l' && negb (cell_is_const h2 r') then
                  if negb (Bool.eqb (cell_is_true h2 l') filt) then Some (h2, r') else h_mk_choice h2 l' v r'
                else if cell_is_const h2 r' && negb (cell_is_const h2 l') then
                  if negb (Bool.eqb (cell_is_true h2 r') filt) then Some (h2, l') else h_mk_choice h2 l' v r'
                else h_mk_choice h2 l' v r'
            | None => None end
        | None => None end
    | None => None
    end
  end.

Lemma h_retain_sound filt : forall fuel h a x, Inv h -> valid h a x -> sound h (h_retain fuel filt h a) (retain_go filt x).
Proof.
  induction fuel as [|k IH]; intros h a x I Va; [apply answers_none; auto|]. cbn [h_retain].
  destruct (valid_cell h a x I Va) as (c & -> & C). destruct C as [| |l v r xl xr Vl Vr]; [apply answers_ret; assumption ..|].
  cbn [retain_go]. apply (answers_bind2 h _ _ _ (retain_go filt xl) (retain_go filt xr)); [exact (IH h l xl I Vl)| |].
  - intros h1 I1 E1. exact (IH h1 r xr I1 (ext_valid _ _ _ _ E1 Vr)).
  - intros h2 l' r' I2 _ Vl' Vr'.
    destruct (cell_is_spec h2 l' _ I2 Vl') as (_ & -> & ->), (cell_is_spec h2 r' _ I2 Vr') as (_ & -> & ->).
    pose proof (choice_answers h2 l' v r' _ _ False I2 Vl' Vr') as Mk.
    destruct (is_const (retain_go filt xl) && negb (is_const (retain_go filt xr))).
    + destruct (negb (Bool.eqb (is_true (retain_go filt xl)) filt)); [apply answers_ret; assumption|exact Mk].
    + destruct (is_const (retain_go filt xr) && negb (is_const (retain_go filt xl))); [|exact Mk].
      destruct (negb (Bool.eqb (is_true (retain_go filt xr)) filt)); [apply answers_ret; assumption|exact Mk].
Qed.
Theorem h_retain_ok filt : forall fuel h a x res, Inv h -> range h a -> struct h a = Some x ->
  h_retain fuel filt h a = Some res -> okres h (retain_go filt x) res.
Proof. intros fuel h a x res I Ra Sa. exact (proj1 (h_retain_sound filt fuel h a x I (conj Ra Sa)) res). Qed.
Print Assumptions h_model_ok. Print Assumptions h_retain_ok.

(** clean (bdd.rs:112-122): re-interns the root from its children.  The source first passes the children (of a leaf: the root) through [find],
    which returns the pointer the table holds for a structure: on a handed-out pointer that is the pointer itself
    ([pointer_eq_is_structural_eq]), so the model leaves these calls out (and with them the panic on a foreign pointer). *)
Definition h_clean (h : heap) (a : addr) : option (heap * addr) :=
  match nth_error (cells h) a with
  | Some (CN l s r) => h_mk_choice h l s r
  | Some _ => Some (h, a)
  | None => None
  end.
Theorem h_clean_ok h a x res : Inv h -> range h a -> struct h a = Some x -> h_clean h a = Some res -> okres h (clean x) res.
Proof.
  intros I Ra Sa. pose proof (conj Ra Sa : valid h a x) as Va.
  assert (S : sound h (h_clean h a) (clean x)); [|exact (proj1 S res)]. unfold h_clean.
  destruct (valid_cell h a x I Va) as (c & -> & C). destruct C as [| |l s r xl xr Vl Vr]; [apply answers_ret; assumption ..|].
  exact (choice_answers h l s r xl xr False I Vl Vr).
Qed.

(** fp (bdd.rs:422-442): iterate a client transformer until the new iterate equals the old one.  The comparison
    `snew == s` of the source is structural; on handed-out pointers that is pointer equality
    ([pointer_eq_is_structural_eq]) *)
Fixpoint h_fp (fuel : nat) (h : heap) (s : addr) (t : heap -> addr -> option (heap * addr)) : option (heap * addr) :=
  match fuel with
  | 0 => None
  | S k =>
    match t h s with
    | Some (h1, s') => if Nat.eqb s' s then Some (h1, s) else h_fp k h1 s' t
    | None => None
    end
  end.
Theorem h_fp_ok (t : heap -> addr -> option (heap * addr)) (tt : bdd -> bdd) :
  (forall h a x res, Inv h -> range h a -> struct h a = Some x -> t h a = Some res -> okres h (tt x) res) ->
  forall fuel h s x res, Inv h -> range h s -> struct h s = Some x -> h_fp fuel h s t = Some res ->
  exists r, fp_f fuel x tt = Some r /\ okres h r res.
Proof.
  intros Ht. induction fuel as [|k IH]; intros h s x res I Rs Ss H; [discriminate|]. cbn [h_fp fp_f] in *.
  destruct (t h s) as [[h1 s']|] eqn:E1; [|discriminate].
  destruct (proj1 (okres_iff _ _ _ _) (Ht h s x (h1, s') I Rs Ss E1)) as (I1 & [Rs' Ss'] & E).
  destruct (ext_valid _ _ _ _ E (conj Rs Ss)) as [Rs1 Ss1].
  destruct (Nat.eqb_spec s' s) as [->|NE].
  - (* the same pointer: the same structure *)
    injection H as <-. assert (Ett : tt x = x) by congruence. rewrite Ett, bdd_eqb_refl. exists x. split; [reflexivity|].
    apply okres_iff. exact (conj I1 (conj (conj Rs1 Ss1) E)).
  - (* different pointers in one table: different structures *)
    destruct (bdd_eqb_spec (tt x) x) as [Ett|Nett].
    + exfalso. apply NE. apply (pointer_eq_is_structural_eq h1 s' s I1 Rs' Rs1). congruence.
    + destruct (IH h1 s' (tt x) res I1 Rs' Ss' H) as (r & Hr & Or). exists r. split; [exact Hr|exact (okres_trans _ _ _ _ E Or)].
Qed.
Print Assumptions h_clean_ok. Print Assumptions h_fp_ok.
