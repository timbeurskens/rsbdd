(** Soundness of the executable checkers of Checkers.v: what the verdict [VHolds] of each checker establishes about the
    input it was computed on; for [verdict_fun] also what [VShape] and [VSem] establish.  Nothing is proved of [VClause]. *)
From Coq Require Import List Bool PeanoNat.
Import ListNotations.
From Rsbdd Require Import Core.Bdd Core.Ops Core.OpsFacts Core.Canon Core.Quant Core.Cube Check.Checkers.

Lemma asgs_cover U : forall s : asg, exists l, In l (asgs U) /\ forall v, In v U -> lookup l v = s v.
Proof.
  induction U as [|u U IH]; intros s; cbn [asgs].
  - exists []. split; [left; reflexivity|intros v []].
  - destruct (IH s) as (l & Hin & Hl).
    exists ((u, s u) :: l). split.
    + apply in_flat_map. exists l. split; [exact Hin|]. destruct (s u); cbn; auto.
    + intros v Hv. cbn [lookup]. destruct (Nat.eqb_spec u v) as [->|Hne]; [reflexivity|].
      destruct Hv as [->|Hv]; [congruence|apply Hl; exact Hv].
Qed.

Lemma beval_agree2 a b (s s' : asg) :
  (forall v, In v (vars2 a b) -> s v = s' v) -> beval s a = beval s' a /\ beval s b = beval s' b.
Proof.
  intros H. split; apply beval_agree_support; intros x Hx; apply H; unfold vars2; apply nodup_In, in_or_app; auto.
Qed.

Lemma find_asgs_none U (p : asg -> bool) :
  (forall s s', (forall v, In v U -> s v = s' v) -> p s = p s') ->
  find (fun l => p (lookup l)) (asgs U) = None -> forall s, p s = false.
Proof.
  intros Hp H s. destruct (asgs_cover U s) as (l & Hin & Hl).
  rewrite <- (Hp (lookup l) s Hl). exact (find_none _ _ H l Hin).
Qed.

Theorem find_diff_none r m : find_diff r m = None -> forall s, beval s r = beval s m.
Proof.
  unfold find_diff. intros H s.
  apply (find_asgs_none _ (fun s => negb (Bool.eqb (beval s r) (beval s m)))) with (s := s) in H.
  - apply negb_false_iff, eqb_prop in H. exact H.
  - intros s1 s2 Hs. destruct (beval_agree2 r m s1 s2 Hs) as [-> ->]. reflexivity.
Qed.

Theorem find_diff_some r m w : find_diff r m = Some w -> beval (lookup w) r <> beval (lookup w) m.
Proof.
  unfold find_diff. intros H. apply find_some in H. destruct H as [_ H].
  apply negb_true_iff, eqb_false_iff in H. exact H.
Qed.

Theorem find_nonimpl_none a b : find_nonimpl a b = None -> forall s, beval s a = true -> beval s b = true.
Proof.
  unfold find_nonimpl. intros H s Ha.
  apply (find_asgs_none _ (fun s => beval s a && negb (beval s b))) with (s := s) in H.
  - rewrite Ha in H. apply negb_false_iff in H. exact H.
  - intros s1 s2 Hs. destruct (beval_agree2 a b s1 s2 Hs) as [-> ->]. reflexivity.
Qed.

Theorem find_nonimpl_some a b w : find_nonimpl a b = Some w -> beval (lookup w) a = true /\ beval (lookup w) b = false.
Proof.
  unfold find_nonimpl. intros H. apply find_some in H. destruct H as [_ H].
  apply andb_true_iff in H. destruct H as [Ha Hb]. apply negb_true_iff in Hb. auto.
Qed.

Lemma inclb_spec l m : inclb l m = true -> incl l m.
Proof.
  unfold inclb. intros H x Hx. rewrite forallb_forall in H. specialize (H x Hx).
  apply existsb_exists in H. destruct H as (y & Hy & E). apply Nat.eqb_eq in E. subst. exact Hy.
Qed.

Lemma is_false_spec a : is_false a = true <-> a = F.
Proof. destruct a; cbn; split; congruence. Qed.

Lemma is_cubeb_spec : forall a, is_cubeb a = true -> is_cube a.
Proof.
  induction a as [| |t IHt v f IHf]; cbn [is_cubeb is_cube]; intros H; [discriminate|exact I|].
  apply orb_true_iff in H. destruct H as [H|H]; apply andb_true_iff in H; destruct H as [H1 H2];
    apply is_false_spec in H1; [left|right]; auto.
Qed.

(** functional operations: a mismatch with the model can never be judged harmless, and the two
    failing verdicts mean what they say *)
Theorem verdict_fun_holds r m : robdd m -> verdict_fun r m = VHolds -> r = m.
Proof.
  unfold verdict_fun. intros Hm H.
  destruct (robddb r) eqn:Er; cbn [negb] in H; [|discriminate].
  destruct (find_diff r m) eqn:Ed; [discriminate|].
  apply robddb_spec in Er. apply (proj2 (robdd_canonical r m Er Hm)). exact (find_diff_none r m Ed).
Qed.
Theorem verdict_fun_shape r m : verdict_fun r m = VShape -> ~ robdd r.
Proof.
  unfold verdict_fun. intros H Hr. apply robddb_spec in Hr. rewrite Hr in H. cbn in H.
  destruct (find_diff r m); discriminate.
Qed.
Theorem verdict_fun_sem r m w : verdict_fun r m = VSem w -> beval (lookup w) r <> beval (lookup w) m.
Proof.
  unfold verdict_fun. intros H. destruct (negb (robddb r)); [discriminate|].
  destruct (find_diff r m) eqn:Ed; [|discriminate]. injection H as ->. exact (find_diff_some r m w Ed).
Qed.

Theorem verdict_model_holds a r : verdict_model a r = VHolds ->
  robdd r /\ (r = F -> forall s, beval s a = false) /\
  (r <> F -> is_cube r /\ incl (support r) (support a) /\ forall s, beval s r = true -> beval s a = true).
Proof.
  unfold verdict_model. intros H.
  destruct (robddb r) eqn:Er; cbn [negb] in H; [|discriminate]. apply robddb_spec in Er.
  split; [exact Er|].
  destruct (is_false r) eqn:Ef.
  - apply is_false_spec in Ef. split; [|congruence]. intros _ s.
    destruct (find _ (asgs (support a))) eqn:Efd; [discriminate|].
    apply (find_asgs_none _ (fun s => beval s a) (fun s1 s2 => beval_agree_support a s1 s2) Efd).
  - assert (r <> F) by (intros ->; discriminate). split; [congruence|]. intros _.
    destruct (is_cubeb r) eqn:Ec; cbn [negb] in H; [|discriminate].
    destruct (inclb (support r) (support a)) eqn:Ei; cbn [negb] in H; [|discriminate].
    destruct (find_nonimpl r a) eqn:En; [discriminate|].
    split; [apply is_cubeb_spec; exact Ec|]. split; [apply inclb_spec; exact Ei|].
    exact (find_nonimpl_none r a En).
Qed.

Theorem verdict_retain_holds f a r : verdict_retain f a r = VHolds ->
  robdd r /\ incl (support r) (support a) /\
  match f with
  | TAny => r = a
  | TTrue => forall s, beval s a = true -> beval s r = true
  | TFalse => forall s, beval s r = true -> beval s a = true
  end.
Proof.
  unfold verdict_retain. intros H.
  destruct (robddb r) eqn:Er; cbn [negb] in H; [|discriminate]. apply robddb_spec in Er.
  destruct (inclb (support r) (support a)) eqn:Ei; cbn [negb] in H; [|discriminate].
  split; [exact Er|]. split; [apply inclb_spec; exact Ei|].
  destruct f.
  - destruct (find_nonimpl a r) eqn:En; [discriminate|]. exact (find_nonimpl_none a r En).
  - destruct (find_nonimpl r a) eqn:En; [discriminate|]. exact (find_nonimpl_none r a En).
  - destruct (bdd_eqb_spec r a) as [E|E]; [exact E|discriminate].
Qed.

(** as [find_diff_some]: above 14 variables [find_diff_big] proposes one assignment and tests it by evaluation *)
Theorem find_diff_any_some r m w : find_diff_any r m = Some w -> beval (lookup w) r <> beval (lookup w) m.
Proof.
  unfold find_diff_any. destruct (Nat.leb _ 14); [apply find_diff_some|].
  unfold find_diff_big. destruct (negb (Bool.eqb _ _)) eqn:E; [|discriminate]. intros H. injection H as <-.
  apply negb_true_iff, eqb_false_iff in E. exact E.
Qed.

(** [(p, q)] is the pair [infer] (bdd.rs:464) answered for [m] and [v] *)
Theorem verdict_infer_holds m v p q : verdict_infer m v p q = VHolds ->
  ((p && q) = true <-> forall s, beval s m = true -> s v = true).
Proof.
  unfold verdict_infer. set (U := nodup Nat.eq_dec (v :: support m)).
  destruct (find (fun l => beval (lookup l) m && negb (lookup l v)) (asgs U)) as [w|] eqn:Ef.
  - (* not forced: a witness *)
    destruct (Bool.eqb (p && q) false) eqn:E; [|discriminate]. intros _. apply eqb_prop in E. rewrite E.
    split; [discriminate|]. intros Hall. apply find_some in Ef. destruct Ef as [_ Hw].
    apply andb_true_iff in Hw. destruct Hw as [Hm Hv]. apply negb_true_iff in Hv. rewrite (Hall _ Hm) in Hv. discriminate.
  - destruct (Bool.eqb (p && q) true) eqn:E; [|discriminate]. intros _. apply eqb_prop in E. rewrite E.
    split; [|reflexivity]. intros _ s Hs.
    apply (find_asgs_none U (fun s => beval s m && negb (s v))) with (s := s) in Ef.
    + rewrite Hs in Ef. apply negb_false_iff in Ef. exact Ef.
    + intros s1 s2 H12. rewrite (H12 v) by (apply nodup_In; left; reflexivity). f_equal.
      apply beval_agree_support. intros x Hx. apply H12, nodup_In. right. exact Hx.
Qed.
