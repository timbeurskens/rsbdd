(** C14 (parse-tree export, src/parser_io.rs): node identity is structural ([unique()] on the
    node list, [position()] for edge targets), so the graph is: the set of sub-terms, a label per
    node, labelled edges to the children.  Label and edge labels determine a node. *)
From Coq Require Import List NArith Lia.
Import ListNotations.
From Rsbdd Require Import Core.Bdd Lang.Ast Lang.AstFacts.

(** node labels (parser_io.rs:101-135), as structured values *)
Inductive nlabel : Type :=
| LBin (op : binop) | LQuant (q : quant) (vs : list nat) | LNot | LCountC (op : cop) (n : N) | LCountV (op : cop)
| LFix (init : bool) (v : nat) | LIte | LFalse | LTrue | LVar (v : nat) | LBdd (b : bdd) | LRef.
(** edge labels (142-246) *)
Inductive elabel : Type := EL | ER | ENone | EIdx (j : nat) | ELIdx (j : nat) | ERIdx (j : nat) | EIf | EThen | EElse.

Fixpoint number_from {A} (mk : nat -> elabel) (j : nat) (l : list A) : list (elabel * A) :=
  match l with [] => [] | x :: r => (mk j, x) :: number_from mk (S j) r end.

Definition label (f : form) : nlabel :=
  match f with
  | FBin op _ _ => LBin op | FQuant q vs _ => LQuant q vs | FNot _ => LNot
  | FCountC op _ n => LCountC op n | FCountV op _ _ => LCountV op
  | FFix v i _ => LFix i v | FIte _ _ _ => LIte | FFalse => LFalse | FTrue => LTrue
  | FVar v => LVar v | FSub b => LBdd b | FRef => LRef
  end.
Definition out_edges (f : form) : list (elabel * form) :=
  match f with
  | FBin _ l r => [(EL, l); (ER, r)]
  | FQuant _ _ g | FNot g | FFix _ _ g => [(ENone, g)]
  | FCountC _ fs _ => number_from EIdx 0 fs
  | FCountV _ l r => number_from ELIdx 0 l ++ number_from ERIdx 0 r
  | FIte c t e => [(EIf, c); (EThen, t); (EElse, e)]
  | _ => []
  end.

(** reading a node back from its label and its outgoing edges *)
Definition pick (sel : elabel -> bool) (es : list (elabel * form)) : list form := map snd (filter (fun e => sel (fst e)) es).
Definition is_idx e := match e with EIdx _ => true | _ => false end.
Definition is_lidx e := match e with ELIdx _ => true | _ => false end.
Definition is_ridx e := match e with ERIdx _ => true | _ => false end.
Definition rebuild (lab : nlabel) (es : list (elabel * form)) : option form :=
  match lab, es with
  | LBin op, [(EL, l); (ER, r)] => Some (FBin op l r)
  | LQuant q vs, [(ENone, g)] => Some (FQuant q vs g)
  | LNot, [(ENone, g)] => Some (FNot g)
  | LFix i v, [(ENone, g)] => Some (FFix v i g)
  | LCountC op n, _ => Some (FCountC op (pick is_idx es) n)
  | LCountV op, _ => Some (FCountV op (pick is_lidx es) (pick is_ridx es))
  | LIte, [(EIf, c); (EThen, t); (EElse, e)] => Some (FIte c t e)
  | LFalse, [] => Some FFalse | LTrue, [] => Some FTrue | LVar v, [] => Some (FVar v)
  | LBdd b, [] => Some (FSub b) | LRef, [] => Some FRef
  | _, _ => None
  end.

Lemma pick_number (mk : nat -> elabel) (sel : elabel -> bool) b : (forall j, sel (mk j) = b) ->
  forall (l : list form) j, pick sel (number_from mk j l) = if b then l else [].
Proof.
  intros H. unfold pick. induction l as [|x r IH]; intros j; cbn [number_from filter fst]; [destruct b; reflexivity|].
  rewrite H. destruct b; cbn [map snd]; rewrite IH; reflexivity.
Qed.
Lemma pick_app sel a b : pick sel (a ++ b) = pick sel a ++ pick sel b.
Proof. unfold pick. rewrite filter_app, map_app. reflexivity. Qed.

Theorem C14_rebuild f : rebuild (label f) (out_edges f) = Some f.
Proof.
  destruct f; cbn [label out_edges rebuild]; auto.
  - rewrite (pick_number EIdx is_idx true) by reflexivity. reflexivity.
  - rewrite !pick_app.
    rewrite (pick_number ELIdx is_lidx true), (pick_number ERIdx is_lidx false) by reflexivity.
    rewrite (pick_number ELIdx is_ridx false), (pick_number ERIdx is_ridx true) by reflexivity.
    rewrite app_nil_r. reflexivity.
Qed.

(** the elements of [nodes_recursive] (parser_io.rs:23-81) before [unique()]; the Rust lists a BinaryOp, Quantifier, Not
    or FixedPoint node after its sub-terms, the order is not used here *)
Fixpoint subterms (f : form) : list form :=
  f :: match f with
       | FBin _ l r => subterms l ++ subterms r
       | FQuant _ _ g | FNot g | FFix _ _ g => subterms g
       | FCountC _ fs _ => flat_map subterms fs
       | FCountV _ l r => flat_map subterms l ++ flat_map subterms r
       | FIte c t e => subterms c ++ subterms t ++ subterms e
       | _ => []
       end.
Definition children (f : form) : list form := map snd (out_edges f).

Lemma children_number {A} mk j (l : list A) : map snd (number_from mk j l) = l.
Proof. revert j. induction l as [|x r IH]; intros j; cbn [number_from map snd]; auto. rewrite IH. reflexivity. Qed.

Lemma subterms_self f : In f (subterms f).
Proof. destruct f; cbn [subterms]; left; reflexivity. Qed.

Lemma sizes_app a b : sizes (a ++ b) = sizes a + sizes b.
Proof. unfold sizes. induction a as [|x a IH]; cbn [app fold_right]; lia. Qed.

Lemma size_children f : size f = S (sizes (children f)).
Proof.
  unfold children. destruct f; cbn [out_edges map snd size]; rewrite ?map_app, ?children_number, ?sizes_app;
    unfold sizes; cbn [fold_right]; lia.
Qed.
Lemma child_size f c : In c (children f) -> size c < size f.
Proof. intros H. apply size_in in H. rewrite (size_children f). lia. Qed.

Lemma subterms_children f : subterms f = f :: flat_map subterms (children f).
Proof.
  unfold children. destruct f; cbn [subterms out_edges map snd flat_map];
    rewrite ?map_app, ?children_number, ?flat_map_app, ?app_nil_r; reflexivity.
Qed.

Lemma subterm_size : forall f g, In g (subterms f) -> size g <= size f.
Proof.
  assert (H : forall n f, size f < n -> forall g, In g (subterms f) -> size g <= size f).
  { induction n as [|n IH]; intros f Hn g; [lia|]. rewrite subterms_children. intros [<-|Hg]; [lia|].
    apply in_flat_map in Hg. destruct Hg as (c & Hc & Hg).
    pose proof (child_size f c Hc). specialize (IH c ltac:(lia) g Hg). lia. }
  intros f. apply (H (S (size f))). lia.
Qed.

(** the root is not a child of any node of the list ([subterms]), so it is recognisable *)
Theorem C14_root_no_parent f p : In p (subterms f) -> ~ In f (children p).
Proof. intros Hp Hc. pose proof (child_size p f Hc). pose proof (subterm_size f p Hp). lia. Qed.
Print Assumptions C14_rebuild.
