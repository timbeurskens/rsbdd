(** C14 (diagram export): the graph written by BDDGraph (src/bdd_io.rs), with node identity =
    structure (C13), read back as a decision graph, evaluates to the same function. *)
From Coq Require Import List Bool Lia.
Import ListNotations.
From Rsbdd Require Import Core.Bdd Core.Ops Core.OpsFacts.

Definition dedge := (bdd * bool * bdd)%type.
Definition dedge_eqb (e1 e2 : dedge) : bool :=
  let '(a, x, b) := e1 in let '(c, y, d) := e2 in bdd_eqb a c && Bool.eqb x y && bdd_eqb b d.
Lemma dedge_eqb_spec e1 e2 : reflect (e1 = e2) (dedge_eqb e1 e2).
Proof.
  destruct e1 as [[a x] b], e2 as [[c y] d]. cbn [dedge_eqb].
  destruct (bdd_eqb_spec a c); cbn; [|constructor; congruence].
  destruct (Bool.eqb_spec x y); cbn; [|constructor; congruence].
  destruct (bdd_eqb_spec b d); constructor; congruence.
Qed.

(** itertools [unique()]: keep the first occurrence *)
Fixpoint uniq_acc {A} (eqb : A -> A -> bool) (seen l : list A) : list A :=
  match l with
  | [] => []
  | x :: r => if existsb (eqb x) seen then uniq_acc eqb seen r else x :: uniq_acc eqb (x :: seen) r
  end.
Definition uniq {A} (eqb : A -> A -> bool) (l : list A) : list A := uniq_acc eqb [] l.

(** a leaf is shown unless the filter asks for the other one (bdd_io.rs:103-109) *)
Definition leaf_kept (filt : tte) (b : bdd) : bool :=
  match filt, b with
  | TAny, _ => true
  | TTrue, T => true | TFalse, F => true
  | _, _ => false
  end.
(** an edge is shown unless it leads to a hidden leaf (121-135) *)
Definition edge_kept (filt : tte) (c : bdd) : bool :=
  match c with Nd _ _ _ => true | _ => leaf_kept filt c end.

(** [nodes_recursive] and [edges_recursive] (bdd_io.rs:89-111, 113-147) *)
Fixpoint dot_nodes (filt : tte) (b : bdd) : list bdd :=
  match b with
  | Nd l _ r => uniq bdd_eqb (dot_nodes filt l ++ [b] ++ dot_nodes filt r)
  | _ => if leaf_kept filt b then [b] else []
  end.
Fixpoint dot_edges (filt : tte) (b : bdd) : list dedge :=
  match b with
  | Nd l _ r =>
      uniq dedge_eqb (dot_edges filt l ++ dot_edges filt r ++
                      (if edge_kept filt l then [(b, true, l)] else []) ++
                      (if edge_kept filt r then [(b, false, r)] else []))
  | _ => []
  end.

(** reading the graph back: follow the edge labelled with the value of the node's variable;
    a missing edge leads to the leaf the filter hides *)
Definition hidden_leaf (filt : tte) : bool := match filt with TTrue => false | _ => true end.
Definition edge_from (p : bdd) (lab : bool) (e : dedge) : bool := bdd_eqb (fst (fst e)) p && Bool.eqb (snd (fst e)) lab.
Definition next (es : list dedge) (p : bdd) (lab : bool) : option bdd :=
  match find (edge_from p lab) es with Some e => Some (snd e) | None => None end.
Fixpoint walk (fuel : nat) (filt : tte) (es : list dedge) (p : bdd) (s : asg) : option bool :=
  match fuel with 0 => None | S k =>
    match p with
    | T => Some true | F => Some false
    | Nd _ v _ => match next es p (s v) with Some c => walk k filt es c s | None => Some (hidden_leaf filt) end
    end
  end.

Section Uniq.
  Context {A : Type} (eqb : A -> A -> bool) (eqb_spec : forall x y, reflect (x = y) (eqb x y)).
  Lemma uniq_acc_spec : forall l seen,
    (forall x, In x (uniq_acc eqb seen l) <-> In x l /\ ~ In x seen) /\ NoDup (uniq_acc eqb seen l).
  Proof.
    induction l as [|a r IH]; intros seen; cbn [uniq_acc]; [split; [intros x; cbn; tauto|constructor]|].
    destruct (existsb (eqb a) seen) eqn:E.
    - apply (existsb_eqb eqb eqb_spec) in E. destruct (IH seen) as [Hin Hnd]. split; auto.
      intros x. rewrite Hin. cbn [In]. split; [tauto|]. intros [[->|H] Hn]; [contradiction|auto].
    - assert (Hns : ~ In a seen) by (intros H; apply (existsb_eqb eqb eqb_spec) in H; congruence).
      destruct (IH (a :: seen)) as [Hin Hnd]. split.
      + intros x. cbn [In]. rewrite Hin. cbn [In]. split.
        * intros [->|[H Hn]]; [auto|]. split; auto.
        * intros [[->|H] Hn]; auto. destruct (eqb_spec a x) as [->|Hne]; auto. right. split; auto. intros [?|?]; auto.
      + constructor; auto. rewrite Hin. cbn [In]. tauto.
  Qed.
  Lemma uniq_In l x : In x (uniq eqb l) <-> In x l.
  Proof. unfold uniq. rewrite (proj1 (uniq_acc_spec l [])). cbn. tauto. Qed.
  Lemma uniq_NoDup l : NoDup (uniq eqb l).
  Proof. apply uniq_acc_spec. Qed.
End Uniq.

(** all sub-diagrams with repetitions: what [nodes_recursive] visits, before the filter and [unique()] *)
Fixpoint subs (b : bdd) : list bdd := match b with Nd l _ r => b :: subs l ++ subs r | _ => [b] end.

Lemma subs_trans : forall q p, In p (subs q) -> forall x, In x (subs p) -> In x (subs q).
Proof.
  induction q as [| |ql IHl qv qr IHr]; intros p Hp x Hx; cbn [subs In] in Hp.
  1, 2: destruct Hp as [<-|[]]; exact Hx.
  destruct Hp as [<-|Hp]; [exact Hx|]. right. rewrite in_app_iff in *.
  destruct Hp as [Hp|Hp]; [left; eapply IHl|right; eapply IHr]; eauto.
Qed.
Lemma subs_self q : In q (subs q). Proof. destruct q; left; reflexivity. Qed.
Lemma subs_child b l v r : In (Nd l v r) (subs b) -> In l (subs b) /\ In r (subs b).
Proof.
  intros H. split; apply (subs_trans _ _ H); cbn [subs]; right; apply in_or_app; [left|right]; apply subs_self.
Qed.

(** the leaf a filter leaves out: [leaf_kept] and [edge_kept] negated (the two lemmas below); statements use this form *)
Definition hidden (filt : tte) (p : bdd) : bool :=
  match filt, p with TTrue, F => true | TFalse, T => true | _, _ => false end.

Lemma leaf_kept_hidden filt p : is_const p = true -> leaf_kept filt p = negb (hidden filt p).
Proof. destruct filt, p; cbn; intros; try reflexivity; discriminate. Qed.
Lemma edge_kept_hidden filt p : edge_kept filt p = negb (hidden filt p).
Proof. destruct filt, p; reflexivity. Qed.

Lemma In_unless {A} (h : A -> bool) (x y : A) : In y (if negb (h x) then [x] else []) <-> In y [x] /\ h y = false.
Proof.
  split; [|intros [[<-|[]] ->]; left; reflexivity].
  destruct (h x) eqn:E; [intros []|intros [<-|[]]; auto using in_eq].
Qed.

(** as a set: the sub-diagrams, less what the filter hides *)
Lemma dot_nodes_spec filt b p : In p (dot_nodes filt b) <-> In p (subs b) /\ hidden filt p = false.
Proof.
  induction b as [| |l IHl v r IHr]; cbn [dot_nodes subs].
  1, 2: rewrite leaf_kept_hidden by reflexivity; apply In_unless.
  rewrite (uniq_In bdd_eqb bdd_eqb_spec), !in_app_iff, IHl, IHr. cbn [In]. rewrite in_app_iff.
  assert (Hn : hidden filt (Nd l v r) = false) by (destruct filt; reflexivity).
  split; [intros [[? ?]|[[<-|[]]|[? ?]]]|intros [[<-|[?|?]] ?]]; auto.
Qed.

(** the two edges [edges_recursive] pushes for an inner node: label true to its left child, false to its right *)
Definition arc (e : dedge) : Prop :=
  match e with (Nd l _ r, lab, c) => c = if lab then l else r | _ => False end.

Lemma node_edges_spec filt l v r e :
  In e ((if edge_kept filt l then [(Nd l v r, true, l)] else []) ++ (if edge_kept filt r then [(Nd l v r, false, r)] else [])) <->
  Nd l v r = fst (fst e) /\ arc e /\ hidden filt (snd e) = false.
Proof.
  rewrite in_app_iff, !edge_kept_hidden. destruct e as [[p lab] c]. cbn [fst snd arc]. split.
  - intros [H|H]; [destruct (hidden filt l) eqn:E|destruct (hidden filt r) eqn:E]; try contradiction H;
    destruct H as [[= <- <- <-]|[]]; auto.
  - intros (<- & -> & H). destruct lab; [left|right]; rewrite H; left; reflexivity.
Qed.

(** as a set: the edges from each inner sub-diagram to its two children, less those into what the filter hides *)
Lemma dot_edges_spec filt b e :
  In e (dot_edges filt b) <-> In (fst (fst e)) (subs b) /\ arc e /\ hidden filt (snd e) = false.
Proof.
  induction b as [| |l IHl v r IHr]; cbn [dot_edges subs].
  1, 2: destruct e as [[p lab] c]; cbn [fst]; split; [intros []|intros ([<-|[]] & [] & _)].
  rewrite (uniq_In dedge_eqb dedge_eqb_spec), 2 in_app_iff, IHl, IHr, node_edges_spec. cbn [In]. rewrite in_app_iff.
  split; [intros [[? ?]|[[? ?]|[? ?]]]|intros [[?|[?|?]] ?]]; auto.
Qed.

Lemma dot_nodes_any b p : In p (dot_nodes TAny b) <-> In p (subs b).
Proof. rewrite dot_nodes_spec. cbn [hidden]. tauto. Qed.

Theorem C14_nodes_once filt b : NoDup (dot_nodes filt b).
Proof.
  destruct b; cbn [dot_nodes]; try (destruct (leaf_kept _ _); repeat constructor; intros []).
  apply (uniq_NoDup bdd_eqb bdd_eqb_spec).
Qed.

Theorem C14_edges_declared b e : In e (dot_edges TAny b) ->
  In (fst (fst e)) (dot_nodes TAny b) /\ In (snd e) (dot_nodes TAny b).
Proof.
  rewrite dot_edges_spec, !dot_nodes_any. intros (Hs & Ha & _). split; [exact Hs|].
  destruct e as [[[| |l v r] lab] c]; cbn [fst snd arc] in *; try contradiction.
  subst c. apply subs_child in Hs. destruct lab; apply Hs.
Qed.

Theorem C14_filter_nodes filt b : forall p, In p (dot_nodes filt b) <-> In p (dot_nodes TAny b) /\ hidden filt p = false.
Proof. intros p. rewrite dot_nodes_any. apply dot_nodes_spec. Qed.

Theorem C14_filter_edges filt b : forall e, In e (dot_edges filt b) <-> In e (dot_edges TAny b) /\ hidden filt (snd e) = false.
Proof. intros e. rewrite !dot_edges_spec. cbn [hidden]. tauto. Qed.

Lemma next_spec es p lab :
  match next es p lab with Some c => In (p, lab, c) es | None => forall c, ~ In (p, lab, c) es end.
Proof.
  unfold next. destruct (find (edge_from p lab) es) as [[[a x] c]|] eqn:E.
  - apply find_some in E. destruct E as [He Hf]. apply andb_prop in Hf. cbn [fst snd] in Hf. destruct Hf as [Ha Hx].
    destruct (bdd_eqb_spec a p) as [->|]; [|discriminate]. apply eqb_prop in Hx. subst x. exact He.
  - intros c Hc. apply (find_none _ _ E) in Hc. unfold edge_from in Hc. cbn [fst snd] in Hc.
    rewrite bdd_eqb_refl, eqb_reflx in Hc. discriminate.
Qed.

Lemma next_filt filt b l v r lab : In (Nd l v r) (subs b) ->
  next (dot_edges filt b) (Nd l v r) lab =
  if hidden filt (if lab then l else r) then None else Some (if lab then l else r).
Proof.
  intros Hin. pose proof (next_spec (dot_edges filt b) (Nd l v r) lab) as H.
  destruct (next _ _ _) as [c|].
  - apply dot_edges_spec in H. cbn [fst snd arc] in H. destruct H as (_ & -> & ->). reflexivity.
  - destruct (hidden filt _) eqn:Hh; [reflexivity|]. destruct (H (if lab then l else r)).
    apply dot_edges_spec. cbn [fst snd arc]. auto.
Qed.

Lemma hidden_value filt c s : hidden filt c = true -> beval s c = hidden_leaf filt.
Proof. destruct filt, c; cbn; intros H; try discriminate H; reflexivity. Qed.

(** under every filter: a missing edge leads to the hidden leaf, whose value [walk] supplies *)
Theorem walk_filt filt b s : walk (S (height b)) filt (dot_edges filt b) b s = Some (beval s b).
Proof.
  assert (H : forall p n, In p (subs b) -> height p < n -> walk n filt (dot_edges filt b) p s = Some (beval s p)).
  { induction p as [| |l IHl v r IHr]; intros n Hin Hn; (destruct n as [|n]; [lia|]); cbn [walk beval]; auto.
    rewrite (next_filt filt b l v r (s v) Hin). cbn [height] in Hn. apply subs_child in Hin. destruct Hin as [Hl Hr].
    destruct (s v).
    - destruct (hidden filt l) eqn:Eh; [rewrite (hidden_value filt l s Eh); reflexivity|apply IHl; [exact Hl|lia]].
    - destruct (hidden filt r) eqn:Eh; [rewrite (hidden_value filt r s Eh); reflexivity|apply IHr; [exact Hr|lia]]. }
  apply H; [apply subs_self|lia].
Qed.

Theorem C14_walk b s : walk (S (height b)) TAny (dot_edges TAny b) b s = Some (beval s b).
Proof. exact (walk_filt TAny b s). Qed.
Print Assumptions C14_walk.
Print Assumptions C14_filter_edges.
