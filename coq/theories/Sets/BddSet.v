(** C19: BDDSet (src/set.rs) behaves as a set of b-bit integers. *)
From Coq Require Import List Arith Bool Lia PeanoNat.
Import ListNotations.
From Rsbdd Require Import Core.Bdd Core.Ops Core.OpsFacts Core.Sem Core.Canon Core.Pres Core.Essential.
From Rsbdd Require Core.Quant.

(** [categorize]: (e >> c) & 1 == 0  -- the encoding is inverted, consistently *)
Definition categorize (e c : nat) : bool := negb (Nat.testbit e c).
Definition lit (e i : nat) : bdd := if categorize e i then bvar i else bnot (bvar i).
(** [insert]'s minterm: fold of [and] from [mk_const(true)] over bits 0..bits-1 *)
Definition minterm (bits e : nat) : bdd := fold_left band (map (lit e) (seq 0 bits)) T.
Definition asg_of (e : nat) : asg := fun i => categorize e i.
Definition mem (b : bdd) (e : nat) : bool := beval (asg_of e) b.

Definition s_insert bits b e := bor b (minterm bits e).
Definition s_union a b := bor a b.
Definition s_intersect a b := band a b.
Definition s_complement a b := band a (bnot b).                                   (* set difference *)
(** [contains] (set.rs) builds the singleton with [from_element], which is [insert] into the empty set, or(false, minterm) =
    minterm, intersects a copy of the set (set.rs:108, so the set itself is not modified) with it and compares the result
    with the singleton by `==` on the diagrams *)
Definition s_contains bits b e := bdd_eqb (band b (minterm bits e)) (minterm bits e).
Definition s_empty := F.
Definition s_universe := T.

Lemma lit_sem s e i : beval s (lit e i) = Bool.eqb (s i) (categorize e i).
Proof.
  unfold lit. destruct (categorize e i).
  - rewrite bvar_sem. destruct (s i); reflexivity.
  - rewrite bnot_sem, bvar_sem. destruct (s i); reflexivity.
Qed.
Lemma fold_band_sem s : forall l acc, beval s (fold_left band l acc) = beval s acc && forallb (beval s) l.
Proof.
  induction l as [|x l IH]; intros acc; cbn [fold_left forallb]; [now rewrite andb_true_r|].
  rewrite IH, band_sem. now rewrite andb_assoc.
Qed.
Lemma minterm_sem bits e s : beval s (minterm bits e) = forallb (fun i => Bool.eqb (s i) (categorize e i)) (seq 0 bits).
Proof.
  unfold minterm. rewrite fold_band_sem. cbn [beval andb].
  induction (seq 0 bits) as [|i l IH]; cbn [map forallb]; auto. rewrite lit_sem, IH. reflexivity.
Qed.

Lemma minterm_true bits e s : beval s (minterm bits e) = true <-> forall i, i < bits -> s i = categorize e i.
Proof.
  rewrite minterm_sem, forallb_forall. split.
  - intros H i Hi. apply eqb_prop, H, in_seq. lia.
  - intros H i Hi. apply in_seq in Hi. rewrite H by lia. apply eqb_reflx.
Qed.

Lemma testbit_small e bits i : e < 2 ^ bits -> bits <= i -> Nat.testbit e i = false.
Proof.
  intros He Hi. destruct (Nat.eq_dec e 0) as [->|Hne]; [apply Nat.bits_0|].
  apply Nat.bits_above_log2. apply Nat.log2_lt_pow2; try lia.
  eapply Nat.lt_le_trans; [exact He|]. apply Nat.pow_le_mono_r; lia.
Qed.

Lemma mem_minterm bits e e' : e < 2 ^ bits -> e' < 2 ^ bits -> mem (minterm bits e) e' = Nat.eqb e' e.
Proof.
  intros He He'. unfold mem. destruct (Nat.eqb_spec e' e) as [->|Hne].
  - apply minterm_true. reflexivity.
  - destruct (beval _ _) eqn:E; auto. exfalso. apply Hne. apply Nat.bits_inj. intros i.
    destruct (le_lt_dec bits i) as [Hge|Hlt]; [rewrite !testbit_small with (bits := bits); auto|].
    apply (proj1 (minterm_true _ _ _) E) in Hlt. unfold asg_of, categorize in Hlt. apply (f_equal negb) in Hlt. now rewrite !negb_involutive in Hlt.
Qed.

Theorem insert_spec bits b e e' : e < 2 ^ bits -> e' < 2 ^ bits ->
  mem (s_insert bits b e) e' = mem b e' || Nat.eqb e' e.
Proof. intros. unfold s_insert, mem. rewrite bor_sem. fold (mem b e'). fold (mem (minterm bits e) e'). now rewrite mem_minterm. Qed.
Theorem union_spec a b e : mem (s_union a b) e = mem a e || mem b e.
Proof. unfold mem, s_union. apply bor_sem. Qed.
Theorem intersect_spec a b e : mem (s_intersect a b) e = mem a e && mem b e.
Proof. unfold mem, s_intersect. apply band_sem. Qed.
Lemma s_complement_sem s a b : beval s (s_complement a b) = beval s a && negb (beval s b).
Proof. unfold s_complement. now rewrite band_sem, bnot_sem. Qed.
Theorem complement_spec a b e : mem (s_complement a b) e = mem a e && negb (mem b e).
Proof. apply s_complement_sem. Qed.
Theorem empty_spec e : mem s_empty e = false. Proof. reflexivity. Qed.
Theorem universe_spec e : mem s_universe e = true. Proof. reflexivity. Qed.

(** the invariant of every set diagram: reduced, ordered, and only variables below [bits] *)
Definition below (bits : nat) (b : bdd) : Prop := forall x, In x (support b) -> x < bits.
Definition setinv (bits : nat) (b : bdd) : Prop := robdd b /\ below bits b.
(** the proofs use it in semantic form ([setinv_intro], [setinv_dep]): the value depends on the first [bits] variables only *)
Definition dep (bits : nat) (b : bdd) : Prop := forall s s', (forall i, i < bits -> s i = s' i) -> beval s b = beval s' b.

Lemma robdd_lit e i : robdd (lit e i).
Proof. unfold lit. destruct (categorize e i); [apply shp_bvar|apply shp_bnot, shp_bvar]; lia. Qed.
Lemma robdd_fold_band l : Forall robdd l -> forall acc, robdd acc -> robdd (fold_left band l acc).
Proof. induction 1 as [|x l Hx Hl IH]; intros acc Ha; cbn [fold_left]; auto. apply IH. apply shp_band; auto. Qed.
Lemma robdd_minterm bits e : robdd (minterm bits e).
Proof.
  unfold minterm. apply robdd_fold_band; [|split; cbn; auto].
  rewrite Forall_forall. intros x Hx. apply in_map_iff in Hx. destruct Hx as (i & <- & _). apply robdd_lit.
Qed.

Lemma below_of_independence bits c : robdd c ->
  (forall x s, bits <= x -> beval (upd s x true) c = beval (upd s x false) c) -> below bits c.
Proof.
  intros Hr Hind x Hx. destruct (lt_dec x bits) as [|Hge]; auto. exfalso.
  apply (independent_not_in_support c x Hr); auto. intros s. apply Hind. lia.
Qed.

Lemma setinv_intro bits b : robdd b -> dep bits b -> setinv bits b.
Proof.
  intros Hr H. split; [exact Hr|]. apply below_of_independence; [exact Hr|].
  intros x s Hx. apply H. intros i Hi. rewrite !upd_other by lia. reflexivity.
Qed.
Lemma setinv_dep bits b : setinv bits b -> dep bits b.
Proof. intros [_ Hb] s s' Hs. apply Quant.beval_agree_support. intros x Hx. apply Hs, Hb, Hx. Qed.

Lemma setinv_minterm bits e : setinv bits (minterm bits e).
Proof.
  apply setinv_intro; [apply robdd_minterm|]. intros s s' H. apply eq_true_iff_eq. rewrite !minterm_true.
  split; intros Hs i Hi; [rewrite <- H|rewrite H]; auto.
Qed.
Lemma setinv_leaf bits b : setinv bits (bconst b).
Proof. split; [apply shp_bconst|]. destruct b; intros x []. Qed.

(** a reduced ordered diagram below the minterm of [e] is that minterm or differs from it semantically; [setinv] says that
    [b] cannot tell [e]'s assignment from another one equal to it on the first [bits] variables *)
Theorem contains_spec bits b e : e < 2 ^ bits -> setinv bits b ->
  s_contains bits b e = mem b e.
Proof.
  intros He Hb. pose proof (setinv_dep _ _ Hb) as Hd. destruct Hb as [Hr _]. unfold s_contains.
  assert (Hm : mem (minterm bits e) e = true) by (rewrite mem_minterm by auto; apply Nat.eqb_refl).
  destruct (bdd_eqb_spec (band b (minterm bits e)) (minterm bits e)) as [E|NE].
  - apply (f_equal (fun d => mem d e)) in E. unfold mem in *. rewrite band_sem, Hm, andb_true_r in E. symmetry. exact E.
  - destruct (mem b e) eqn:Hb; auto. exfalso. apply NE.
    apply robdd_canonical; [apply shp_band; auto; apply robdd_minterm|apply robdd_minterm|].
    (* where the minterm holds, the assignment is that of [e] on the variables [b] depends on *)
    intros s. rewrite band_sem. destruct (beval s (minterm bits e)) eqn:Es; [|apply andb_false_r].
    rewrite andb_true_r. rewrite <- Hb. apply Hd. exact (proj1 (minterm_true _ _ _) Es).
Qed.
Print Assumptions contains_spec.

(** operations on a pair of sets; an index [i : bool] names the set operated on, [false] the first, [true] the second
    ([sel] reads it, [put] replaces it); binary operations store into [i], as the source's `&self` methods do *)
Inductive sop : Type :=
| SInsert (i : bool) (e : nat) | SUnion (i j : bool) | SIntersect (i j : bool) | SComplement (i j : bool)
| SEmpty (i : bool) | SUniverse (i : bool) | SContains (i : bool) (e : nat).

Definition sel {A} (i : bool) (st : A * A) : A := if i then snd st else fst st.
Definition put {A} (i : bool) (x : A) (st : A * A) : A * A := if i then (fst st, x) else (x, snd st).

(** [contains] works on a copy, so the state comes back unchanged *)
Definition step (bits : nat) (st : bdd * bdd) (o : sop) : (bdd * bdd) * option bool :=
  match o with
  | SInsert i e => (put i (s_insert bits (sel i st) e) st, None)
  | SUnion i j => (put i (s_union (sel i st) (sel j st)) st, None)
  | SIntersect i j => (put i (s_intersect (sel i st) (sel j st)) st, None)
  | SComplement i j => (put i (s_complement (sel i st) (sel j st)) st, None)
  | SEmpty i => (put i s_empty st, None)
  | SUniverse i => (put i s_universe st, None)
  | SContains i e => (st, Some (s_contains bits (sel i st) e))
  end.
(** the reference: sets as membership predicates *)
Definition rset := nat -> bool.
Definition rstep (st : rset * rset) (o : sop) : (rset * rset) * option bool :=
  match o with
  | SInsert i e => (put i (fun x => sel i st x || Nat.eqb x e) st, None)
  | SUnion i j => (put i (fun x => sel i st x || sel j st x) st, None)
  | SIntersect i j => (put i (fun x => sel i st x && sel j st x) st, None)
  | SComplement i j => (put i (fun x => sel i st x && negb (sel j st x)) st, None)
  | SEmpty i => (put i (fun _ => false) st, None)
  | SUniverse i => (put i (fun _ => true) st, None)
  | SContains i e => (st, Some (sel i st e))
  end.

(** [op_ok]: elements fit in [bits] bits; [rel1]: the diagram is a set diagram and has the members of the reference set
    among the [bits]-bit numbers; [rel]: both components *)
Definition op_ok (bits : nat) (o : sop) : Prop :=
  match o with SInsert _ e | SContains _ e => e < 2 ^ bits | _ => True end.
Definition rel1 (bits : nat) (b : bdd) (r : rset) : Prop := setinv bits b /\ forall e, e < 2 ^ bits -> mem b e = r e.
Definition rel (bits : nat) (st : bdd * bdd) (rs : rset * rset) : Prop := rel1 bits (fst st) (fst rs) /\ rel1 bits (snd st) (snd rs).

Lemma rel_sel bits st rs i : rel bits st rs -> rel1 bits (sel i st) (sel i rs).
Proof. intros [H0 H1]. destruct i; auto. Qed.
Lemma rel_put bits st rs i b r : rel bits st rs -> rel1 bits b r -> rel bits (put i b st) (put i r rs).
Proof. intros [H0 H1] H. destruct i; split; cbn; auto. Qed.

Lemma rel1_const bits c : rel1 bits (bconst c) (fun _ => c).
Proof. split; [apply setinv_leaf|destruct c; reflexivity]. Qed.
Lemma rel1_minterm bits e : e < 2 ^ bits -> rel1 bits (minterm bits e) (fun x => Nat.eqb x e).
Proof. intros He. split; [apply setinv_minterm|intros x Hx; apply mem_minterm; assumption]. Qed.
(** a Boolean connective [f] computed by a diagram operation [op] that keeps diagrams reduced and ordered *)
Section Connective.
  Variables (bits : nat) (op : bdd -> bdd -> bdd) (f : bool -> bool -> bool).
  Hypothesis Hshp : forall a b, robdd a -> robdd b -> robdd (op a b).
  Hypothesis Hsem : forall s a b, beval s (op a b) = f (beval s a) (beval s b).

  Lemma setinv_op a b : setinv bits a -> setinv bits b -> setinv bits (op a b).
  Proof.
    intros Ha Hb. apply setinv_intro; [apply Hshp; [apply Ha|apply Hb]|].
    intros s s' H. rewrite !Hsem, (setinv_dep _ _ Ha s s' H), (setinv_dep _ _ Hb s s' H). reflexivity.
  Qed.
  Lemma rel1_op a b ra rb : rel1 bits a ra -> rel1 bits b rb -> rel1 bits (op a b) (fun x => f (ra x) (rb x)).
  Proof.
    intros [Ia Ma] [Ib Mb]. split; [apply setinv_op; assumption|].
    intros x Hx. rewrite <- Ma, <- Mb by assumption. apply Hsem.
  Qed.
End Connective.
Lemma robdd_complement a b : robdd a -> robdd b -> robdd (s_complement a b).
Proof. intros Ha Hb. apply shp_band, shp_bnot; assumption. Qed.

Theorem C19_step bits st rs o : rel bits st rs -> op_ok bits o ->
  rel bits (fst (step bits st o)) (fst (rstep rs o)) /\ snd (step bits st o) = snd (rstep rs o).
Proof.
  intros Hrel Hok. pose proof (rel_sel bits st rs) as S.
  destruct o as [i e|i j|i j|i j|i|i|i e]; cbn [step rstep fst snd op_ok] in *; (split; [|try reflexivity]).
  - apply rel_put, (rel1_op bits bor orb (shp_bor 0) bor_sem), rel1_minterm; auto.
  - apply rel_put, (rel1_op bits bor orb (shp_bor 0) bor_sem); auto.
  - apply rel_put, (rel1_op bits band andb (shp_band 0) band_sem); auto.
  - apply rel_put, (rel1_op bits s_complement (fun x y => x && negb y) robdd_complement s_complement_sem); auto.
  - apply rel_put, (rel1_const bits false). exact Hrel.
  - apply rel_put, (rel1_const bits true). exact Hrel.
  - exact Hrel.
  - destruct (S i Hrel) as [Hi Hm]. f_equal. rewrite contains_spec; auto.
Qed.

Fixpoint runs (bits : nat) (st : bdd * bdd) (os : list sop) : list (option bool) :=
  match os with [] => [] | o :: r => snd (step bits st o) :: runs bits (fst (step bits st o)) r end.
Fixpoint rruns (st : rset * rset) (os : list sop) : list (option bool) :=
  match os with [] => [] | o :: r => snd (rstep st o) :: rruns (fst (rstep st o)) r end.

Theorem C19_histories bits : forall os st rs, rel bits st rs -> Forall (op_ok bits) os ->
  runs bits st os = rruns rs os.
Proof.
  induction os as [|o os IH]; intros st rs Hrel Hok; cbn [runs rruns]; auto.
  inversion Hok; subst. destruct (C19_step bits st rs o Hrel H1) as [Hrel' Hans]. rewrite Hans. f_equal. apply IH; auto.
Qed.
Theorem C19_initial bits : rel bits (F, F) ((fun _ => false), (fun _ => false)).
Proof. split; apply (rel1_const bits false). Qed.
Theorem C19_query_pure bits st i e : fst (step bits st (SContains i e)) = st.
Proof. reflexivity. Qed.
Print Assumptions C19_histories.
