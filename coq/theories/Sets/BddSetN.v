(** C19 with binary elements: the same state machine over [N] elements, so that sets of up to 64 bits with
    elements up to 2^64-1 can be executed; it is the machine of BddSet.v read through [N.of_nat], and every
    history over elements below 2^bits answers like the reference sets of [N]. *)
From Coq Require Import List Bool PeanoNat NArith Nnat.
Import ListNotations.
From Rsbdd Require Import Core.Bdd Core.Ops Sets.BddSet.

Definition categorizeN (e : N) (c : nat) : bool := negb (N.testbit e (N.of_nat c)).
Definition litN (e : N) (i : nat) : bdd := if categorizeN e i then bvar i else bnot (bvar i).
Definition mintermN (bits : nat) (e : N) : bdd := fold_left band (map (litN e) (seq 0 bits)) T.
Definition sN_insert bits b e := bor b (mintermN bits e).
Definition sN_contains bits b e := bdd_eqb (band b (mintermN bits e)) (mintermN bits e).

Lemma testbit_of_nat e c : N.testbit (N.of_nat e) (N.of_nat c) = Nat.testbit e c.
Proof.
  apply eq_true_iff_eq. rewrite N.testbit_true, Nat.testbit_true.
  change 2%N with (N.of_nat 2). rewrite <- Nat2N.inj_pow, <- Nat2N.inj_div, <- Nat2N.inj_mod. change 1%N with (N.of_nat 1).
  split; [intros H; apply Nat2N.inj in H; exact H|intros ->; reflexivity].
Qed.
Lemma categorizeN_of_nat e c : categorizeN (N.of_nat e) c = categorize e c.
Proof. unfold categorizeN, categorize. rewrite testbit_of_nat. reflexivity. Qed.
Lemma mintermN_of_nat bits e : mintermN bits (N.of_nat e) = minterm bits e.
Proof.
  unfold mintermN, minterm. f_equal. apply map_ext. intros i. unfold litN, lit. rewrite categorizeN_of_nat. reflexivity.
Qed.

Inductive sopN : Type :=
| SNInsert (i : bool) (e : N) | SNUnion (i j : bool) | SNIntersect (i j : bool) | SNComplement (i j : bool)
| SNEmpty (i : bool) | SNUniverse (i : bool) | SNContains (i : bool) (e : N).

Definition stepN (bits : nat) (st : bdd * bdd) (o : sopN) : (bdd * bdd) * option bool :=
  match o with
  | SNInsert i e => (put i (sN_insert bits (sel i st) e) st, None)
  | SNUnion i j => (put i (s_union (sel i st) (sel j st)) st, None)
  | SNIntersect i j => (put i (s_intersect (sel i st) (sel j st)) st, None)
  | SNComplement i j => (put i (s_complement (sel i st) (sel j st)) st, None)
  | SNEmpty i => (put i s_empty st, None)
  | SNUniverse i => (put i s_universe st, None)
  | SNContains i e => (st, Some (sN_contains bits (sel i st) e))
  end.
Fixpoint runsN (bits : nat) (st : bdd * bdd) (os : list sopN) : list (option bool) :=
  match os with [] => [] | o :: r => snd (stepN bits st o) :: runsN bits (fst (stepN bits st o)) r end.
(** the pair of sets after a history (used by Check/Prog.v only) *)
Definition finalN (bits : nat) (os : list sopN) : bdd * bdd := fold_left (fun st o => fst (stepN bits st o)) os (F, F).

Definition sop_to_N (o : sop) : sopN :=
  match o with
  | SInsert i e => SNInsert i (N.of_nat e) | SUnion i j => SNUnion i j | SIntersect i j => SNIntersect i j
  | SComplement i j => SNComplement i j | SEmpty i => SNEmpty i | SUniverse i => SNUniverse i
  | SContains i e => SNContains i (N.of_nat e)
  end.
Definition sop_of_N (o : sopN) : sop :=
  match o with
  | SNInsert i e => SInsert i (N.to_nat e) | SNUnion i j => SUnion i j | SNIntersect i j => SIntersect i j
  | SNComplement i j => SComplement i j | SNEmpty i => SEmpty i | SNUniverse i => SUniverse i
  | SNContains i e => SContains i (N.to_nat e)
  end.
Lemma sop_to_of_N o : sop_to_N (sop_of_N o) = o.
Proof. destruct o; cbn; rewrite ?N2Nat.id; reflexivity. Qed.

Lemma stepN_of_nat bits st o : stepN bits st (sop_to_N o) = step bits st o.
Proof.
  destruct o; cbn [sop_to_N stepN step]; try reflexivity.
  - unfold sN_insert, s_insert. rewrite mintermN_of_nat. reflexivity.
  - unfold sN_contains, s_contains. rewrite mintermN_of_nat. reflexivity.
Qed.
Lemma runsN_of_nat bits : forall os st, runsN bits st (map sop_to_N os) = runs bits st os.
Proof. induction os as [|o os IH]; intros st; cbn [map runsN runs]; auto. rewrite stepN_of_nat, IH. reflexivity. Qed.

Definition rsetN := N -> bool.
Definition rstepN (st : rsetN * rsetN) (o : sopN) : (rsetN * rsetN) * option bool :=
  match o with
  | SNInsert i e => (put i (fun x => sel i st x || N.eqb x e) st, None)
  | SNUnion i j => (put i (fun x => sel i st x || sel j st x) st, None)
  | SNIntersect i j => (put i (fun x => sel i st x && sel j st x) st, None)
  | SNComplement i j => (put i (fun x => sel i st x && negb (sel j st x)) st, None)
  | SNEmpty i => (put i (fun _ => false) st, None)
  | SNUniverse i => (put i (fun _ => true) st, None)
  | SNContains i e => (st, Some (sel i st e))
  end.
Fixpoint rrunsN (st : rsetN * rsetN) (os : list sopN) : list (option bool) :=
  match os with [] => [] | o :: r => snd (rstepN st o) :: rrunsN (fst (rstepN st o)) r end.
Definition op_okN (bits : nat) (o : sopN) : Prop :=
  match o with SNInsert _ e | SNContains _ e => (e < 2 ^ N.of_nat bits)%N | _ => True end.

(** the N reference is the nat reference read through N.to_nat *)
Definition relr (r : rset * rset) (rn : rsetN * rsetN) : Prop :=
  (forall x, fst rn x = fst r (N.to_nat x)) /\ (forall x, snd rn x = snd r (N.to_nat x)).
Lemma relr_sel r rn i x : relr r rn -> sel i rn x = sel i r (N.to_nat x).
Proof. intros [H0 H1]. destruct i; cbn; auto. Qed.
Lemma eqb_to_nat x e : N.eqb x e = Nat.eqb (N.to_nat x) (N.to_nat e).
Proof. apply eq_true_iff_eq. rewrite N.eqb_eq, Nat.eqb_eq, N2Nat.inj_iff. reflexivity. Qed.
Lemma relr_put r rn i (f : rset) (g : rsetN) : relr r rn -> (forall x, g x = f (N.to_nat x)) -> relr (put i f r) (put i g rn).
Proof. intros [H0 H1] H. destruct i; split; cbn; auto. Qed.
Lemma rstepN_rel r rn o : relr r rn ->
  relr (fst (rstep r (sop_of_N o))) (fst (rstepN rn o)) /\ snd (rstep r (sop_of_N o)) = snd (rstepN rn o).
Proof.
  intros Hr. pose proof (fun i x => relr_sel r rn i x Hr) as S.
  destruct o as [i e|i j|i j|i j|i|i|i e]; cbn [sop_of_N rstep rstepN fst snd]; (split; [|try reflexivity]).
  1-6: apply relr_put; auto; intros x; rewrite ?S, ?eqb_to_nat; reflexivity.
  - exact Hr.
  - f_equal. symmetry. apply S.
Qed.
Lemma rrunsN_rel : forall os r rn, relr r rn -> rruns r (map sop_of_N os) = rrunsN rn os.
Proof.
  induction os as [|o os IH]; intros r rn Hr; cbn [map rruns rrunsN]; auto.
  destruct (rstepN_rel r rn o Hr) as [Hr' Ha]. rewrite Ha. f_equal. apply IH. exact Hr'.
Qed.

Lemma op_okN_nat bits o : op_okN bits o -> op_ok bits (sop_of_N o).
Proof.
  assert (H2 : forall e, (e < 2 ^ N.of_nat bits)%N -> N.to_nat e < 2 ^ bits).
  { intros e H. apply N.compare_lt_iff in H. rewrite N2Nat.inj_compare in H. apply Nat.compare_lt_iff in H.
    rewrite N2Nat.inj_pow, Nat2N.id in H. exact H. }
  destruct o as [i e|i j|i j|i j|i|i|i e]; cbn [op_okN op_ok sop_of_N]; auto.
Qed.

Theorem C19_histories_N bits os : Forall (op_okN bits) os ->
  runsN bits (F, F) os = rrunsN ((fun _ => false), (fun _ => false)) os.
Proof.
  intros Hok.
  rewrite <- (map_id os) at 1. rewrite <- (map_ext _ _ sop_to_of_N os), <- map_map.
  rewrite runsN_of_nat.
  rewrite (C19_histories bits (map sop_of_N os) (F, F) ((fun _ => false), (fun _ => false)) (C19_initial bits)).
  - apply rrunsN_rel. split; intros x; reflexivity.
  - rewrite Forall_forall in *. intros o Ho. apply in_map_iff in Ho. destruct Ho as (o' & <- & Hin). apply op_okN_nat. auto.
Qed.
Print Assumptions C19_histories_N.
