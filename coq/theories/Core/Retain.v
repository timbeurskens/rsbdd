(** C20: dropping forced choices is sound in the direction of the filter. *)
From Coq Require Import List Arith Bool PeanoNat.
From Rsbdd Require Import Core.Bdd Core.Ops Core.OpsFacts Core.Sem Core.Pres.

(** in the direction of the filter the value is kept: a test is dropped only when its other branch has become the
    leaf opposite to the filter, which by induction it was not under an assignment that takes that branch *)
Lemma retain_go_dir filt : forall a s, beval s a = filt -> beval s (retain_go filt a) = filt.
Proof.
  induction a as [| |l IHl v r IHr]; intros s H; [exact H|exact H|].
  cbn [beval] in H.
  assert (Hl : s v = true -> beval s (retain_go filt l) = filt) by (intros E; rewrite E in H; auto).
  assert (Hr : s v = false -> beval s (retain_go filt r) = filt) by (intros E; rewrite E in H; auto).
  destruct (retain_go_Nd filt l v r) as [-> |[[-> E]|[-> E]]].
  - rewrite beval_mk. destruct (s v); auto.
  - destruct (s v); auto. specialize (Hl eq_refl). rewrite E, bconst_sem in Hl. destruct filt; discriminate.
  - destruct (s v); auto. specialize (Hr eq_refl). rewrite E, bconst_sem in Hr. destruct filt; discriminate.
Qed.

Theorem C20_true a s : beval s a = true -> beval s (retain a TTrue) = true.
Proof. exact (retain_go_dir true a s). Qed.
Theorem C20_false a s : beval s (retain a TFalse) = true -> beval s a = true.
Proof.
  intros H. destruct (beval s a) eqn:E; [reflexivity|].
  rewrite (retain_go_dir false a s E : beval s (retain a TFalse) = false) in H. discriminate.
Qed.
Theorem C20_any a : retain a TAny = a.
Proof. reflexivity. Qed.

Lemma retain_go_support filt : forall a, incl (support (retain_go filt a)) (support a).
Proof.
  induction a as [| |l IHl v r IHr]; try apply incl_refl.
  assert (Hl : incl (support (retain_go filt l)) (support (Nd l v r))) by (intros x Hx; right; apply in_or_app; auto).
  assert (Hr : incl (support (retain_go filt r)) (support (Nd l v r))) by (intros x Hx; right; apply in_or_app; auto).
  destruct (retain_go_Nd filt l v r) as [-> |[[-> _]|[-> _]]]; auto.
  intros x Hx. apply support_mk in Hx. destruct Hx as [->|Hx]; [left; reflexivity|].
  apply in_app_or in Hx. destruct Hx; auto.
Qed.

Theorem C20_shape a f : robdd a -> robdd (retain a f) /\ incl (support (retain a f)) (support a).
Proof.
  intros Ha. split; [apply (shp_retain a f 0 Ha)|].
  destruct f; cbn [retain]; try apply incl_refl; apply retain_go_support.
Qed.
