(** Every variable in the support of a reduced ordered diagram is essential: changing it changes the value
    under some assignment. *)
From Coq Require Import List Arith Bool Lia PeanoNat.
From Rsbdd Require Import Core.Bdd Core.Canon Core.Pres Core.Quant.

Theorem distinguish lo a b : shp lo a -> shp lo b -> a <> b -> exists s, beval s a <> beval s b.
Proof. intros [Oa Ra] [Ob Rb]. exact (separate a b lo Oa Ra Ob Rb). Qed.

Lemma ord_support_ge : forall b lo x, ord lo b -> In x (support b) -> lo <= x.
Proof.
  induction b as [| |t IHt v f IHf]; intros lo x Ho Hx; cbn [support] in Hx; [destruct Hx|destruct Hx|].
  cbn [ord] in Ho. destruct Ho as (Hv & Ot & Of). destruct Hx as [->|Hx]; auto.
  apply in_app_or in Hx. destruct Hx as [Hx|Hx]; [specialize (IHt _ _ Ot Hx)|specialize (IHf _ _ Of Hx)]; lia.
Qed.

Lemma upd_comm s x y a b : x <> y -> forall z, upd (upd s x a) y b z = upd (upd s y b) x a z.
Proof. intros Hne z. unfold upd. destruct (Nat.eqb_spec z y), (Nat.eqb_spec z x); subst; congruence. Qed.
Lemma beval_upd_comm a s x y c d : x <> y -> beval (upd (upd s x c) y d) a = beval (upd (upd s y d) x c) a.
Proof. intros Hne. apply beval_ext, upd_comm, Hne. Qed.

Theorem essential : forall b lo x, shp lo b -> In x (support b) ->
  exists s, beval (upd s x true) b <> beval (upd s x false) b.
Proof.
  induction b as [| |t IHt v f IHf]; intros lo x Hb Hx; cbn [support] in Hx; [destruct Hx|destruct Hx|].
  apply shp_Nd in Hb. destruct Hb as (Hv & Hn & Ht & Hf). destruct Hx as [<-|Hx].
  - destruct (distinguish (S v) t f Ht Hf Hn) as (s & Hs).
    exists s. rewrite !beval_upd_node by (apply Ht || apply Hf). exact Hs.
  - (* x is tested in the branch taken under [c]: fix v to c around the assignment found there *)
    assert (Hc : exists c : bool, In x (support (if c then t else f))).
    { apply in_app_or in Hx. destruct Hx; [exists true|exists false]; assumption. }
    destruct Hc as [c Hc].
    assert (Hsub : shp (S v) (if c then t else f)) by (destruct c; assumption).
    pose proof (ord_support_ge _ _ _ (proj1 Hsub) Hc) as Hgt.
    assert (IH : exists s, beval (upd s x true) (if c then t else f) <> beval (upd s x false) (if c then t else f)).
    { destruct c; eauto. }
    destruct IH as (s & Hs). exists (upd s v c).
    rewrite !(beval_upd_comm _ s v x) by lia. rewrite !beval_upd_node by (apply Ht || apply Hf). exact Hs.
Qed.

Corollary independent_not_in_support b x : robdd b ->
  (forall s, beval (upd s x true) b = beval (upd s x false) b) -> ~ In x (support b).
Proof. intros Hb Hind Hin. destruct (essential b 0 x Hb Hin) as (s & Hs). apply Hs, Hind. Qed.

Lemma support_by_indep b (P : nat -> bool) : robdd b ->
  (forall x, P x = false -> forall s, beval (upd s x true) b = beval (upd s x false) b) ->
  forall x, In x (support b) -> P x = true.
Proof.
  intros Hb Hind x Hx. destruct (P x) eqn:E; [reflexivity|].
  destruct (independent_not_in_support b x Hb (Hind x E) Hx).
Qed.
