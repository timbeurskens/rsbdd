(** C03: every connective computes the pointwise Boolean operation, and C05: the counting operations count.
    No ordering hypothesis. *)
From Coq Require Import List Arith Bool Lia PeanoNat ZArith.
Import ListNotations.
From Rsbdd Require Import Core.Bdd Core.Ops Core.OpsFacts.

Lemma beval_mk s t v f : beval s (mk t v f) = if s v then beval s t else beval s f.
Proof. unfold mk. destruct (bdd_eqb_spec t f); subst; cbn [beval]; destruct (s v); reflexivity. Qed.

Definition absorb_op (z : bool) : bool -> bool -> bool := if z then orb else andb.

Lemma apply_sem z op s : is_apply z op -> forall a b, beval s (op a b) = absorb_op z (beval s a) (beval s b).
Proof.
  assert (Hc : forall x y, absorb_op z x y = absorb_op z y x) by (destruct z; [apply orb_comm|apply andb_comm]).
  intros Hop. apply (apply_ind z op (fun a b r => beval s r = absorb_op z (beval s a) (beval s b)) Hop).
  - intros a b Hl. unfold leaf_ans.
    destruct z, a, b; try discriminate Hl; cbn [is_const is_true Bool.eqb absorb_op beval];
      rewrite ?andb_true_r, ?andb_false_r, ?orb_true_r, ?orb_false_r; reflexivity.
  - intros t v f bt vb bf r1 r2 _ b H1 H2. rewrite beval_mk, H1, H2. cbn [beval]. destruct (s v); reflexivity.
  - intros at_ va af t v f r1 r2 _ a H1 H2. rewrite beval_mk, H1, H2. cbn [beval]. destruct (s v); apply Hc.
  - intros t v f t' f' r1 r2 H1 H2. rewrite beval_mk, H1, H2. cbn [beval]. destruct (s v); reflexivity.
Qed.

Lemma band_sem s a b : beval s (band a b) = beval s a && beval s b.
Proof. exact (apply_sem false band s band_apply a b). Qed.

Lemma bor_sem s a b : beval s (bor a b) = beval s a || beval s b.
Proof. exact (apply_sem true bor s bor_apply a b). Qed.

Lemma bnot_sem s a : beval s (bnot a) = negb (beval s a).
Proof. induction a as [| |t IHt v f IHf]; cbn [bnot beval]; auto. rewrite beval_mk, IHt, IHf. destruct (s v); reflexivity. Qed.

Lemma bimplies_sem s a b : beval s (bimplies a b) = implb (beval s a) (beval s b).
Proof. unfold bimplies. rewrite bor_sem, bnot_sem. destruct (beval s a), (beval s b); reflexivity. Qed.
Lemma bite_sem s a b c : beval s (bite a b c) = if beval s a then beval s b else beval s c.
Proof. unfold bite. rewrite band_sem, !bimplies_sem, bnot_sem. destruct (beval s a), (beval s b), (beval s c); reflexivity. Qed.
Lemma beq_sem s a b : beval s (beq a b) = Bool.eqb (beval s a) (beval s b).
Proof. unfold beq. rewrite band_sem, !bimplies_sem. destruct (beval s a), (beval s b); reflexivity. Qed.
Lemma bxor_sem s a b : beval s (bxor a b) = xorb (beval s a) (beval s b).
Proof. unfold bxor. rewrite bor_sem, !band_sem, !bnot_sem. destruct (beval s a), (beval s b); reflexivity. Qed.
Lemma bnor_sem s a b : beval s (bnor a b) = negb (beval s a || beval s b).
Proof. unfold bnor. rewrite band_sem, !bnot_sem. destruct (beval s a), (beval s b); reflexivity. Qed.
Lemma bnand_sem s a b : beval s (bnand a b) = negb (beval s a && beval s b).
Proof. unfold bnand. rewrite bnot_sem, band_sem. reflexivity. Qed.
Lemma bvar_sem s v : beval s (bvar v) = s v.
Proof. unfold bvar. rewrite beval_mk. cbn [beval]. destruct (s v); reflexivity. Qed.
Lemma bconst_sem s b : beval s (bconst b) = b.
Proof. destruct b; reflexivity. Qed.

Fixpoint count_true (s : asg) (bs : list bdd) : Z :=
  match bs with [] => 0%Z | x :: r => ((if beval s x then 1 else 0) + count_true s r)%Z end.

Lemma cmp_count_sem s cmp : forall bs n, beval s (cmp_count bs n cmp) = cmp (n - count_true s bs)%Z.
Proof.
  induction bs as [|x r IH]; intros n; cbn [cmp_count count_true].
  - rewrite Z.sub_0_r. apply bconst_sem.
  - rewrite bite_sem, !IH. destruct (beval s x); f_equal; lia.
Qed.

Lemma aln_sem s bs n : beval s (aln bs n) = (n <=? count_true s bs)%Z.
Proof. unfold aln. rewrite cmp_count_sem. apply eq_true_iff_eq. rewrite !Z.leb_le. lia. Qed.
Lemma amn_sem s bs n : beval s (amn bs n) = (count_true s bs <=? n)%Z.
Proof. unfold amn. rewrite cmp_count_sem. apply eq_true_iff_eq. rewrite Z.geb_le, Z.leb_le. lia. Qed.
Lemma exn_sem s bs n : beval s (exn bs n) = (count_true s bs =? n)%Z.
Proof. unfold exn. rewrite cmp_count_sem. apply eq_true_iff_eq. rewrite !Z.eqb_eq. lia. Qed.

Lemma cmp_count_compare_sem s cmp : forall a b n,
  beval s (cmp_count_compare a b n cmp) = beval s (cmp b (n + count_true s a)%Z).
Proof.
  induction a as [|x r IH]; intros b n; cbn [cmp_count_compare count_true].
  - now rewrite Z.add_0_r.
  - rewrite bite_sem, !IH. destruct (beval s x); do 2 f_equal; lia.
Qed.

Lemma count_leq_sem s a b : beval s (count_leq a b) = (count_true s a <=? count_true s b)%Z.
Proof. unfold count_leq. rewrite cmp_count_compare_sem, aln_sem. reflexivity. Qed.
Lemma count_lt_sem s a b : beval s (count_lt a b) = (count_true s a <? count_true s b)%Z.
Proof. unfold count_lt. rewrite cmp_count_compare_sem, aln_sem. apply eq_true_iff_eq. rewrite Z.leb_le, Z.ltb_lt. lia. Qed.
Lemma count_geq_sem s a b : beval s (count_geq a b) = (count_true s b <=? count_true s a)%Z.
Proof. unfold count_geq. rewrite cmp_count_compare_sem, amn_sem. reflexivity. Qed.
Lemma count_gt_sem s a b : beval s (count_gt a b) = (count_true s b <? count_true s a)%Z.
Proof. unfold count_gt. rewrite cmp_count_compare_sem, amn_sem. apply eq_true_iff_eq. rewrite Z.leb_le, Z.ltb_lt. lia. Qed.
Lemma count_eq_sem s a b : beval s (count_eq a b) = (count_true s a =? count_true s b)%Z.
Proof. unfold count_eq. rewrite band_sem, count_leq_sem, count_geq_sem. apply eq_true_iff_eq. rewrite andb_true_iff, !Z.leb_le, Z.eqb_eq. lia. Qed.
