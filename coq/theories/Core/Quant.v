(** C04: quantifiers eliminate exactly the listed variables. *)
From Coq Require Import List Arith Bool PeanoNat.
Import ListNotations.
From Rsbdd Require Import Core.Bdd Core.Ops Core.Sem Core.Canon Core.Pres.

Definition ex1 (v : nat) (d : asg -> bool) : asg -> bool := fun s => d (upd s v true) || d (upd s v false).
Definition all1 (v : nat) (d : asg -> bool) : asg -> bool := fun s => d (upd s v true) && d (upd s v false).

Lemma bex1_sem x : forall b lo s, ord lo b -> beval s (bex1 x b) = ex1 x (fun s => beval s b) s.
Proof.
  unfold ex1. induction b as [| |t IHt v f IHf]; intros lo s Ho; cbn [bex1 beval]; auto.
  destruct Ho as (Hv & Ht & Hf).
  destruct (Nat.eqb_spec v x).
  - subst v. rewrite !upd_same, bor_sem, !beval_upd_above; auto.
  - rewrite beval_mk, (IHt (S v)), (IHf (S v)); auto. rewrite !upd_other by auto.
    destruct (s v); reflexivity.
Qed.

Lemma bex_sem vs : forall b lo s, ord lo b -> beval s (bex vs b) = fold_right ex1 (fun s => beval s b) vs s.
Proof.
  induction vs as [|x vs IH]; intros b lo s Hb; cbn [bex fold_right]; auto.
  rewrite (bex1_sem x _ lo) by (apply ord_bex; auto). unfold ex1.
  rewrite !(IH b lo) by auto. reflexivity.
Qed.

Lemma ball_sem vs b lo s : ord lo b -> beval s (ball vs b) = fold_right all1 (fun s => beval s b) vs s.
Proof.
  intros Hb. unfold ball. rewrite bnot_sem, (bex_sem vs _ lo) by (apply bnot_shp; auto).
  revert s. induction vs as [|x vs IH]; intros s; cbn [fold_right].
  - rewrite bnot_sem. apply negb_involutive.
  - unfold ex1, all1 in *. rewrite negb_orb, !IH. reflexivity.
Qed.

(** C04's "some / every re-assignment of the variables in V": [s'] differs from [s] at most on [vs] *)
Definition agree_outside (vs : list nat) (s s' : asg) : Prop := forall x, ~ In x vs -> s x = s' x.

Lemma agree_refl vs s : agree_outside vs s s.
Proof. intros x _. reflexivity. Qed.
Lemma agree_sym vs s s' : agree_outside vs s s' -> agree_outside vs s' s.
Proof. intros H x Hx. symmetry. apply H, Hx. Qed.
Lemma agree_trans vs s1 s2 s3 : agree_outside vs s1 s2 -> agree_outside vs s2 s3 -> agree_outside vs s1 s3.
Proof. intros H1 H2 x Hx. rewrite (H1 x Hx). apply H2, Hx. Qed.
Lemma agree_incl vs vs' s s' : incl vs vs' -> agree_outside vs s s' -> agree_outside vs' s s'.
Proof. intros Hi H x Hx. apply H. intros Hin. apply Hx, Hi, Hin. Qed.
Lemma agree_upd_in vs s v c : In v vs -> agree_outside vs (upd s v c) s.
Proof. intros Hin x Hx. apply upd_other. intros ->. exact (Hx Hin). Qed.
Lemma agree_cons_intro v vs s s' c : agree_outside vs (upd s v c) s' -> agree_outside (v :: vs) s s'.
Proof.
  intros H. apply (agree_trans _ _ (upd s v c)).
  - apply agree_sym, agree_upd_in. left. reflexivity.
  - apply (agree_incl vs); [intros x Hx; right; exact Hx|exact H].
Qed.
Lemma agree_cons_elim v vs s s' : agree_outside (v :: vs) s s' -> agree_outside vs (upd s v (s' v)) s'.
Proof.
  intros H x Hx. unfold upd. destruct (Nat.eqb_spec x v) as [->|Hne]; [reflexivity|].
  apply H. intros [->|Hin]; [exact (Hne eq_refl)|exact (Hx Hin)].
Qed.

Definition respects (d : asg -> bool) : Prop := forall s s', (forall x, s x = s' x) -> d s = d s'.

Lemma respects_agree_nil d s s' : respects d -> agree_outside [] s s' -> d s = d s'.
Proof. intros Hd Ha. apply Hd. intros x. apply Ha. intros []. Qed.

Lemma beval_agree_support : forall b s s', (forall x, In x (support b) -> s x = s' x) -> beval s b = beval s' b.
Proof.
  induction b as [| |t IHt v f IHf]; intros s s' H; cbn [beval support] in *; auto.
  rewrite (H v) by (left; reflexivity).
  rewrite (IHt s s'), (IHf s s'); auto; intros x Hx; apply H; right; apply in_or_app; auto.
Qed.

Lemma beval_ext b : respects (fun s => beval s b).
Proof. intros s s' H. apply beval_agree_support. intros x _. apply H. Qed.

Lemma respects_upd2 (op : bool -> bool -> bool) v d :
  respects d -> respects (fun s => op (d (upd s v true)) (d (upd s v false))).
Proof. intros Hd s s' H. f_equal; apply Hd; intros x; unfold upd; destruct (Nat.eqb x v); auto. Qed.

Lemma fold_ex1_spec (d : asg -> bool) : respects d -> forall vs s,
  fold_right ex1 d vs s = true <-> exists s', agree_outside vs s s' /\ d s' = true.
Proof.
  intros Hd. induction vs as [|v vs IH]; intros s; cbn [fold_right].
  - split; [intros H; exists s; split; [apply agree_refl|exact H]|].
    intros (s' & Ha & Hs'). rewrite (respects_agree_nil d s s'); auto.
  - unfold ex1 at 1. rewrite orb_true_iff, !IH. split.
    + intros [(s' & Ha & Hs')|(s' & Ha & Hs')]; exists s'; split; eauto using agree_cons_intro.
    + intros (s' & Ha & Hs'). apply agree_cons_elim in Ha. destruct (s' v); [left|right]; exists s'; auto.
Qed.

Lemma fold_all1_spec (d : asg -> bool) : respects d -> forall vs s,
  fold_right all1 d vs s = true <-> forall s', agree_outside vs s s' -> d s' = true.
Proof.
  intros Hd. induction vs as [|v vs IH]; intros s; cbn [fold_right].
  - split; [|intros H; apply H, agree_refl].
    intros H s' Ha. rewrite <- (respects_agree_nil d s s'); auto.
  - unfold all1 at 1. rewrite andb_true_iff, !IH. split.
    + intros [H1 H0] s' Ha. apply agree_cons_elim in Ha. destruct (s' v); auto.
    + intros H. split; intros s' Ha; apply H; eapply agree_cons_intro; exact Ha.
Qed.

(** C04 for every ordered operand, reduced or not: exists / all in the source never look at reducedness *)
Theorem bex_spec vs b s : ord 0 b ->
  (beval s (bex vs b) = true <-> exists s', agree_outside vs s s' /\ beval s' b = true).
Proof. intros Hb. rewrite (bex_sem vs b 0) by exact Hb. apply (fold_ex1_spec _ (beval_ext b)). Qed.

Theorem ball_spec vs b s : ord 0 b ->
  (beval s (ball vs b) = true <-> forall s', agree_outside vs s s' -> beval s' b = true).
Proof. intros Hb. rewrite (ball_sem vs b 0) by exact Hb. apply (fold_all1_spec _ (beval_ext b)). Qed.

Theorem C04_exists vs b s : robdd b ->
  (beval s (bex vs b) = true <-> exists s', agree_outside vs s s' /\ beval s' b = true).
Proof. intros [Hb _]. exact (bex_spec vs b s Hb). Qed.

Theorem C04_all vs b s : robdd b ->
  (beval s (ball vs b) = true <-> forall s', agree_outside vs s s' -> beval s' b = true).
Proof. intros [Hb _]. exact (ball_spec vs b s Hb). Qed.

Definition depends_on (b : bdd) (v : nat) : Prop := exists s, beval (upd s v true) b <> beval (upd s v false) b.

Lemma ex1_indep v d : respects d -> forall s x, ex1 v d (upd s v x) = ex1 v d s.
Proof.
  intros Hd s x. unfold ex1. f_equal; apply Hd; intros y; unfold upd; destruct (Nat.eqb y v); reflexivity.
Qed.

Theorem C04_equal_sets vs vs' b : robdd b -> (forall v, In v vs <-> In v vs') -> bex vs b = bex vs' b.
Proof.
  intros Hb Hvs. apply (canon 0); try apply (shp_bex _ _ 0 Hb).
  intros s. apply eq_iff_eq_true. rewrite !C04_exists by exact Hb.
  split; intros (s' & Ha & Hs'); exists s'; (split; [|exact Hs']);
    refine (agree_incl _ _ _ _ _ Ha); intros x Hx; apply Hvs, Hx.
Qed.

Theorem C04_disjoint vs b : robdd b -> (forall v, In v vs -> ~ In v (support b)) -> bex vs b = b.
Proof.
  intros Hb Hd. apply (canon 0); try apply Hb; try apply (shp_bex _ _ 0 Hb).
  intros s. apply eq_iff_eq_true. rewrite C04_exists by exact Hb. split.
  - intros (s' & Ha & Hs'). rewrite <- Hs'.
    apply beval_agree_support. intros x Hx. apply Ha. intros Hin. exact (Hd x Hin Hx).
  - intros H. exists s. split; [apply agree_refl|exact H].
Qed.

Theorem C04_indep vs b v s x : robdd b -> In v vs -> beval (upd s v x) (bex vs b) = beval s (bex vs b).
Proof.
  intros Hb Hin. apply eq_iff_eq_true. rewrite !C04_exists by exact Hb.
  pose proof (agree_upd_in vs s v x Hin) as Hag.
  split; intros (s' & Ha & Hs'); exists s'; (split; [|exact Hs']).
  - exact (agree_trans _ _ _ _ (agree_sym _ _ _ Hag) Ha).
  - exact (agree_trans _ _ _ _ Hag Ha).
Qed.
