(** C06 (termination): the reduced ordered diagrams over a finite variable universe U, preordered by implication ([ble]) and measured
    by counting assignments ([cnt]), and the iteration lemma [iterate] for the evaluator's loop [Lang.Eval.fp_opt] (hence the import from Lang). *)
From Coq Require Import List Arith Lia.
Import ListNotations.
From Rsbdd Require Import Core.Bdd Core.OpsFacts Core.Canon Core.Quant Core.Essential.
From Rsbdd Require Import Lang.Eval.

Definition ble (a b : bdd) : Prop := forall s, beval s a = true -> beval s b = true.

Fixpoint all_asgs (U : list nat) : list asg :=
  match U with
  | [] => [fun _ => false]
  | v :: U' => map (fun s => upd s v true) (all_asgs U') ++ map (fun s => upd s v false) (all_asgs U')
  end.

Lemma all_asgs_cover U : forall s, exists s', In s' (all_asgs U) /\ forall v, In v U -> s v = s' v.
Proof.
  induction U as [|v U IH]; intros s; cbn [all_asgs].
  - exists (fun _ => false). split; [left; reflexivity|intros v []].
  - destruct (IH s) as (s' & Hin & Hag).
    exists (upd s' v (s v)). split.
    + apply in_or_app. destruct (s v); [left; apply (in_map (fun t => upd t v true))|right; apply (in_map (fun t => upd t v false))]; auto.
    + intros w [->|Hw]; [now rewrite upd_same|].
      unfold upd. destruct (Nat.eqb_spec w v); [subst; reflexivity|auto].
Qed.

Lemma filter_len_le {A} (p q : A -> bool) L : (forall x, p x = true -> q x = true) -> length (filter p L) <= length (filter q L).
Proof.
  intros H. induction L as [|x L IH]; cbn [filter]; auto.
  destruct (p x) eqn:Ep; [rewrite (H x Ep)|destruct (q x)]; cbn [length]; lia.
Qed.
Lemma filter_len_lt {A} (p q : A -> bool) L x0 : (forall x, p x = true -> q x = true) ->
  In x0 L -> p x0 = false -> q x0 = true -> length (filter p L) < length (filter q L).
Proof.
  intros H Hin Hp Hq. apply in_split in Hin. destruct Hin as (L1 & L2 & ->).
  pose proof (filter_len_le p q L1 H). pose proof (filter_len_le p q L2 H).
  rewrite !filter_app, !app_length. cbn [filter]. rewrite Hp, Hq. cbn [length]. lia.
Qed.

(** the number of assignments over U at which b has the value c; a proper step away from the constant c lowers it ([cnt_strict]) *)
Definition cnt (c : bool) (U : list nat) (b : bdd) : nat := length (filter (fun s => Bool.eqb (beval s b) c) (all_asgs U)).

Lemma cnt_strict (c : bool) U a b : robdd a -> robdd b -> incl (support a) U -> incl (support b) U ->
  (if c then ble b a else ble a b) -> b <> a -> cnt c U b < cnt c U a.
Proof.
  intros Ra Rb Sa Sb Hle Hne.
  destruct (distinguish 0 b a Rb Ra Hne) as (s & Hs).
  destruct (all_asgs_cover U s) as (s' & Hin & Hag).
  rewrite (beval_agree_support b s s'), (beval_agree_support a s s') in Hs by (intros x Hx; apply Hag; auto).
  assert (K : forall x, Bool.eqb (beval x b) c = true -> Bool.eqb (beval x a) c = true).
  { intros x. destruct c; specialize (Hle x); destruct (beval x a), (beval x b); cbn; auto. }
  (* at s' the two differ, so by K it is b that has not the value c there *)
  apply (filter_len_lt _ _ _ s'); [exact K|exact Hin| |]; generalize (K s'); revert Hs; destruct c, (beval s' a), (beval s' b); cbn;
    intros Hs Ks; first [reflexivity|case Hs; reflexivity|discriminate (Ks eq_refl)].
Qed.

Lemma fp_opt_mono_le : forall k k' s (t t' : bdd -> option bdd) r, k <= k' ->
  (forall x y, t x = Some y -> t' x = Some y) -> fp_opt k s t = Some r -> fp_opt k' s t' = Some r.
Proof.
  induction k as [|k IH]; intros k' s t t' r Hle Ht H; [discriminate|].
  destruct k' as [|k']; [lia|]. cbn [fp_opt] in *. destruct (t s) as [s'|] eqn:E; [|discriminate].
  rewrite (Ht _ _ E). destruct (bdd_eqb s' s); auto. eapply IH; eauto. lia.
Qed.

(** Kleene iteration, upwards or downwards alike: a fuel-indexed transformer that is total on the diagrams
    satisfying G and keeps the relation R, started at a b with R b (t b), reaches a fixed point as long as
    every proper step lowers the measure mu.  The fixed point satisfies every invariant of the iteration
    (hence lies below every pre-fixed point when going up, above every post-fixed point when going down). *)
Section Iterate.
  Variable G : bdd -> Prop.
  Variable t : nat -> bdd -> option bdd.
  Variable R : bdd -> bdd -> Prop.
  Variable mu : bdd -> nat.
  Hypothesis t_fuel : forall n m b x, t n b = Some x -> n <= m -> t m b = Some x.
  Hypothesis t_total : forall b, G b -> exists n b', t n b = Some b' /\ G b'.
  Hypothesis t_R : forall n m a b a' b', G a -> G b -> R a b -> t n a = Some a' -> t m b = Some b' -> R a' b'.
  Hypothesis mu_dec : forall a b, G a -> G b -> R a b -> b <> a -> mu b < mu a.

  Lemma iterate : forall b, G b -> (forall n b', t n b = Some b' -> R b b') ->
    exists n r, fp_opt n b (t n) = Some r /\ G r /\ t n r = Some r /\
      (forall P : bdd -> Prop, P b -> (forall x m x', G x -> P x -> t m x = Some x' -> P x') -> P r).
  Proof.
    induction b as [b IH] using (well_founded_induction (well_founded_ltof _ mu)). intros Hb Hstep.
    destruct (t_total b Hb) as (n0 & b' & Eb & Hb').
    destruct (bdd_eqb_spec b' b) as [E|NE].
    - subst b'. exists (S n0), b. cbn [fp_opt]. rewrite (t_fuel _ (S n0) _ _ Eb) by lia. rewrite bdd_eqb_refl.
      split; [reflexivity|split; [exact Hb|split; [reflexivity|intros P Pb _; exact Pb]]].
    - destruct (IH b' (mu_dec b b' Hb Hb' (Hstep _ _ Eb) NE) Hb') as (n1 & r & Hn & Hr & Hfix & Hinv).
      + intros m b'' Eb''. exact (t_R n0 m b b' b' b'' Hb Hb' (Hstep _ _ Eb) Eb Eb'').
      + exists (S (max n0 n1)), r.
        assert (Eb2 : t (S (max n0 n1)) b = Some b') by (apply (t_fuel _ _ _ _ Eb); lia).
        split; [|split; [exact Hr|split]].
        * cbn [fp_opt]. rewrite Eb2. destruct (bdd_eqb_spec b' b); [contradiction|].
          eapply fp_opt_mono_le; [| |exact Hn]; [lia|]. intros x y Hxy. apply (t_fuel _ _ _ _ Hxy). lia.
        * apply (t_fuel _ _ _ _ Hfix). lia.
        * intros P Pb Pstep. apply Hinv; [apply (Pstep b n0 b' Hb Pb Eb)|exact Pstep].
  Qed.
End Iterate.

Section Kleene.
  Variable U : list nat.
  Variable t : bdd -> option bdd.
  Definition good (b : bdd) : Prop := robdd b /\ incl (support b) U.
  Hypothesis t_total : forall b, good b -> exists b', t b = Some b' /\ good b'.
  Hypothesis t_mono : forall a b a' b', good a -> good b -> ble a b -> t a = Some a' -> t b = Some b' -> ble a' b'.

  Theorem lfp_terminates :
    exists n r, fp_opt n F t = Some r /\ good r /\ t r = Some r /\
      (forall p p', good p -> t p = Some p' -> ble p' p -> ble r p).
  Proof.
    destruct (iterate good (fun _ => t) ble (cnt false U)) with (b := F) as (n & r & Hn & Hr & Hfix & Hinv).
    - auto.
    - intros b Hb. destruct (t_total b Hb) as (b' & Eb & Hb'). exists 0, b'. auto.
    - intros _ _. exact t_mono.
    - intros a b [Ra Sa] [Rb Sb]. apply (cnt_strict false); assumption.
    - split; [split; cbn; auto|intros x []].
    - intros _ b' _ s Hs. discriminate.
    - exists n, r. repeat split; auto; try apply Hr.
      (* x <= p gives t x <= t p = p' <= p *)
      intros p p' Hp Ep Hpre. apply (Hinv (fun x => ble x p)); [intros s Hs; discriminate|].
      intros x _ x' Hx Px Ex s Hs. apply Hpre. exact (t_mono x p x' p' Hx Hp Px Ex Ep s Hs).
  Qed.
End Kleene.
