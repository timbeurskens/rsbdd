(** C06 (library): [fp] returns the first element of a, t a, t (t a), .. that t maps to itself. *)
From Coq Require Import Lia.
From Rsbdd Require Import Core.Bdd Core.Ops Core.OpsFacts.

Fixpoint iter (k : nat) (t : bdd -> bdd) (a : bdd) : bdd := match k with 0 => a | S j => iter j t (t a) end.

Lemma iter_S k t a : iter (S k) t a = t (iter k t a).
Proof. revert a; induction k as [|k IH]; intros a; cbn [iter]; auto. rewrite <- IH. reflexivity. Qed.

Theorem C06_fp : forall n a t r, fp_f n a t = Some r <->
  exists k, k < n /\ r = iter k t a /\ t r = r /\ forall j, j < k -> t (iter j t a) <> iter j t a.
Proof.
  induction n as [|n IH]; intros a t r; cbn [fp_f].
  - split; [discriminate|intros (k & Hk & _); lia].
  - destruct (bdd_eqb_spec (t a) a) as [E|NE].
    + split.
      * intros H. inversion H; subst. exists 0. repeat split; auto; try lia; intros j Hj; lia.
      * intros (k & Hk & Hr & Hfix & Hmin). destruct k as [|k]; [cbn in Hr; congruence|].
        exfalso. apply (Hmin 0); [lia|exact E].
    + rewrite IH. split.
      * intros (k & Hk & Hr & Hfix & Hmin). exists (S k). repeat split; auto; try lia.
        intros [|j] Hj; [exact NE|]. cbn [iter]. apply Hmin. lia.
      * intros (k & Hk & Hr & Hfix & Hmin). destruct k as [|k].
        -- cbn in Hr. subst r. contradiction.
        -- exists k. repeat split; auto; try lia. intros j Hj. apply (Hmin (S j)). lia.
Qed.
