(** C07: model extraction returns one genuine satisfying cube. *)
From Coq Require Import List Arith Bool Lia PeanoNat.
From Rsbdd Require Import Core.Bdd Core.Ops Core.OpsFacts Core.Sem Core.Canon Core.Pres.

(** a cube: a chain in which every node has exactly one [F] child, ending in [T] *)
Fixpoint is_cube (a : bdd) : Prop :=
  match a with
  | T => True
  | F => False
  | Nd t v f => (f = F /\ is_cube t) \/ (t = F /\ is_cube f)
  end.

Lemma band_cube_var c v : ord (S v) c -> c <> F -> band c (bvar v) = Nd c v F.
Proof.
  intros Ho Hne. rewrite band_unfold. destruct c as [| |ct cv cf]; [congruence|reflexivity|].
  change (bvar v) with (Nd T v F). destruct Ho as (Hv & _).
  destruct (Nat.ltb_spec cv v); [lia|]. destruct (Nat.ltb_spec v cv); [|lia].
  rewrite !band_unfold. reflexivity.
Qed.

Lemma band_notvar_cube c v : ord (S v) c -> c <> F -> band (bnot (bvar v)) c = Nd F v c.
Proof.
  intros Ho Hne. rewrite band_unfold. change (bnot (bvar v)) with (Nd F v T).
  destruct c as [| |ct cv cf]; [congruence|reflexivity|]. destruct Ho as (Hv & _).
  destruct (Nat.ltb_spec v cv); [|lia]. rewrite !band_unfold. reflexivity.
Qed.

Lemma is_cube_neF c : is_cube c -> c <> F.
Proof. intros H ->. exact H. Qed.

Lemma robdd_sat : forall a lo, shp lo a -> a <> F -> exists s, beval s a = true.
Proof.
  intros a lo [Oa Ra] Hne. destruct (separate a F lo Oa Ra I I Hne) as (s & Hs).
  exists s. apply not_false_is_true. exact Hs.
Qed.

(** On an ordered diagram, reduced or not, [model] returns the false leaf, and then the diagram is unsatisfiable,
    or a reduced ordered cube; over variables of the diagram in both cases. *)
Lemma bmodel_spec : forall a lo, ord lo a ->
  ((bmodel a = F /\ forall s, beval s a = false) \/ (is_cube (bmodel a) /\ shp lo (bmodel a))) /\
  incl (support (bmodel a)) (support a).
Proof.
  induction a as [| |t IHt v f IHf]; intros lo Ho; cbn [bmodel].
  - split; [left; split; reflexivity|apply incl_refl].
  - split; [right; split; [exact I|split; exact I]|apply incl_refl].
  - destruct Ho as (Hv & Hot & Hof).
    destruct (IHt (S v) Hot) as [Ct St]. destruct (IHf (S v) Hof) as [Cf Sf].
    destruct (bdd_eqb_spec (bmodel t) F) as [Et|Et]; cbn [negb].
    + destruct Ct as [[_ Ut]|[Ct _]]; [|destruct (is_cube_neF _ Ct Et)].
      destruct (bdd_eqb_spec (bmodel f) F) as [Ef|Ef]; cbn [negb].
      * destruct Cf as [[_ Uf]|[Cf _]]; [|destruct (is_cube_neF _ Cf Ef)].
        split; [left; split; [reflexivity|]|intros x []].
        intros s. cbn [beval]. destruct (s v); auto.
      * destruct Cf as [[Cf _]|(Cf & Of & Rf)]; [contradiction|].
        rewrite band_notvar_cube by auto. split.
        -- right. split; [right; auto|]. apply shp_Nd. repeat split; auto; congruence.
        -- cbn [support]. intros x [->|Hx]; [left; reflexivity|right; apply in_or_app; right; apply Sf; exact Hx].
    + destruct Ct as [[Ct _]|(Ct & Ot & Rt)]; [contradiction|].
      rewrite band_cube_var by auto. split.
      * right. split; [left; auto|]. apply shp_Nd. repeat split; auto.
      * cbn [support]. intros x [->|Hx]; [left; reflexivity|].
        rewrite app_nil_r in Hx. right. apply in_or_app. left. apply St. exact Hx.
Qed.

Lemma bmodel_shape : forall a lo, shp lo a ->
  (bmodel a = F \/ is_cube (bmodel a)) /\ incl (support (bmodel a)) (support a).
Proof. intros a lo [Ho _]. destruct (bmodel_spec a lo Ho) as [[[E _]|[C _]] S]; auto. Qed.

Lemma bmodel_implies : forall a s, beval s (bmodel a) = true -> beval s a = true.
Proof.
  induction a as [| |t IHt v f IHf]; intros s H; cbn [bmodel beval] in *; auto.
  destruct (negb (bdd_eqb (bmodel t) F)).
  - rewrite band_sem, bvar_sem in H. apply andb_prop in H. destruct H as [H1 H2]. rewrite H2. auto.
  - destruct (negb (bdd_eqb (bmodel f) F)); [|discriminate].
    rewrite band_sem, bnot_sem, bvar_sem in H. apply andb_prop in H. destruct H as [H1 H2].
    destruct (s v); [discriminate|auto].
Qed.

Lemma bmodel_sat : forall a lo, shp lo a -> a <> F -> exists s, beval s (bmodel a) = true.
Proof.
  intros a lo Ha Hne. destruct (bmodel_spec a lo (proj1 Ha)) as [[[_ U]|[C S]] _].
  - destruct (robdd_sat a lo Ha Hne) as (s & Hs). rewrite U in Hs. discriminate.
  - exact (robdd_sat _ lo S (is_cube_neF _ C)).
Qed.

Lemma bmodel_unsat a lo : ord lo a -> (bmodel a = F <-> forall s, beval s a = false).
Proof.
  intros Ho. destruct (bmodel_spec a lo Ho) as [[[E U]|[C S]] _]; [tauto|].
  split; [intros E; destruct (is_cube_neF _ C E)|]. intros H.
  destruct (robdd_sat _ lo S (is_cube_neF _ C)) as (s & Hs). apply bmodel_implies in Hs. rewrite H in Hs. discriminate.
Qed.

Lemma bmodel_cube a lo : ord lo a -> bmodel a <> F ->
  is_cube (bmodel a) /\ shp lo (bmodel a) /\ incl (support (bmodel a)) (support a) /\
  forall s, beval s (bmodel a) = true -> beval s a = true.
Proof.
  intros Ho Hne. destruct (bmodel_spec a lo Ho) as [[[E _]|[C S]] I]; [contradiction|].
  repeat split; auto; try apply S. apply bmodel_implies.
Qed.

(** on ordered diagrams the [band] calls of [bmodel] reduce to a single node *)
Lemma bmodel_Nd t v f lo : ord lo (Nd t v f) ->
  bmodel (Nd t v f) =
  if bdd_eqb (bmodel t) F then if bdd_eqb (bmodel f) F then F else Nd F v (bmodel f) else Nd (bmodel t) v F.
Proof.
  intros (_ & Ht & Hf). cbn [bmodel].
  destruct (bdd_eqb_spec (bmodel t) F) as [_|Nt]; cbn [negb].
  - destruct (bdd_eqb_spec (bmodel f) F) as [_|Nf]; cbn [negb]; [reflexivity|].
    apply band_notvar_cube; [apply (bmodel_cube f (S v) Hf Nf)|exact Nf].
  - apply band_cube_var; [apply (bmodel_cube t (S v) Ht Nt)|exact Nt].
Qed.

(** [bnot] rebuilds its operand with [mk], so the implication that [infer] inspects is reduced as well *)
Lemma binfer_forced m v lo : ord lo m ->
  (binfer m v = (true, true) <-> forall s, beval s m = true -> s v = true).
Proof.
  intros Hm. unfold binfer.
  assert (Hi : robdd (bimplies m (bvar v))).
  { apply shp_bor; [apply bnot_shp, (ord_weaken lo); [lia|exact Hm]|apply shp_bvar; lia]. }
  split.
  - intros H s Hs. destruct (bimplies m (bvar v)) eqn:E; try discriminate.
    assert (Hb : beval s (bimplies m (bvar v)) = true) by (rewrite E; reflexivity).
    rewrite bimplies_sem, bvar_sem, Hs in Hb. exact Hb.
  - intros H. rewrite (robdd_const _ true Hi); [reflexivity|].
    intros s. rewrite bimplies_sem, bvar_sem. destruct (beval s m) eqn:E; auto. cbn. apply H. exact E.
Qed.

Theorem C07_unsat a : robdd a -> (bmodel a = F <-> forall s, beval s a = false).
Proof. intros [Ho _]. exact (bmodel_unsat a 0 Ho). Qed.

Theorem C07_cube a : robdd a -> bmodel a <> F ->
  is_cube (bmodel a) /\ robdd (bmodel a) /\ incl (support (bmodel a)) (support a) /\
  forall s, beval s (bmodel a) = true -> beval s a = true.
Proof. intros [Ho _]. exact (bmodel_cube a 0 Ho). Qed.

Theorem C07_infer m v : robdd m ->
  (binfer m v = (true, true) <-> forall s, beval s m = true -> s v = true).
Proof. intros [Ho _]. exact (binfer_forced m v 0 Ho). Qed.
