(** C02: every operation returns a reduced ordered diagram. *)
From Coq Require Import List Arith Bool Lia PeanoNat ZArith.
From Rsbdd Require Import Core.Bdd Core.Ops Core.OpsFacts Core.Canon.

Lemma ord_mk lo t v f : lo <= v -> ord (S v) t -> ord (S v) f -> ord lo (mk t v f).
Proof.
  intros Hv Ht Hf. unfold mk. destruct (bdd_eqb t f).
  - eapply ord_weaken; [|exact Ht]. lia.
  - cbn [ord]. auto.
Qed.
Lemma red_mk t v f : red t -> red f -> red (mk t v f).
Proof. intros Ht Hf. unfold mk. destruct (bdd_eqb_spec t f); auto. cbn [red]. auto. Qed.

(** [robdd] is [shp 0], by conversion *)
Definition shp (lo : nat) (a : bdd) : Prop := ord lo a /\ red a.

Lemma shp_Nd lo t v f : shp lo (Nd t v f) <-> lo <= v /\ t <> f /\ shp (S v) t /\ shp (S v) f.
Proof. unfold shp. cbn [ord red]. tauto. Qed.
Lemma shp_mk lo t v f : lo <= v -> shp (S v) t -> shp (S v) f -> shp lo (mk t v f).
Proof. intros Hv [Ot Rt] [Of Rf]. split; [apply ord_mk|apply red_mk]; assumption. Qed.
Lemma shp_weaken lo lo' a : lo' <= lo -> shp lo a -> shp lo' a.
Proof. intros H [? ?]. split; auto. eapply ord_weaken; eauto. Qed.
Lemma shp_bconst lo b : shp lo (bconst b).
Proof. destruct b; split; exact I. Qed.

(** and / or keep the order on operands that are not reduced, and reducedness on operands that are not ordered *)
Lemma apply_ord z op : is_apply z op -> forall a b lo, ord lo a -> ord lo b -> ord lo (op a b).
Proof.
  intros Hop. apply (apply_ind z op (fun a b r => forall lo, ord lo a -> ord lo b -> ord lo r) Hop).
  - intros a b _ lo Ha Hb. destruct (leaf_ans_operand z a b) as [-> | ->]; assumption.
  - intros t v f bt vb bf r1 r2 Hlt b H1 H2 lo (Hv & Ht & Hf) (_ & Hb).
    assert (ord (S v) b) by (split; [exact Hlt|exact Hb]). apply ord_mk; auto.
  - intros at_ va af t v f r1 r2 Hlt a H1 H2 lo (_ & Ha) (Hv & Ht & Hf).
    assert (ord (S v) a) by (split; [exact Hlt|exact Ha]). apply ord_mk; auto.
  - intros t v f t' f' r1 r2 H1 H2 lo (Hv & Ht & Hf) (_ & Ht' & Hf'). apply ord_mk; auto.
Qed.

Lemma apply_red z op : is_apply z op -> forall a b, red a -> red b -> red (op a b).
Proof.
  intros Hop. apply (apply_ind z op (fun a b r => red a -> red b -> red r) Hop).
  - intros a b _ Ha Hb. destruct (leaf_ans_operand z a b) as [-> | ->]; assumption.
  - intros t v f bt vb bf r1 r2 _ b H1 H2 (_ & Ht & Hf) Hb. apply red_mk; auto.
  - intros at_ va af t v f r1 r2 _ a H1 H2 Ha (_ & Ht & Hf). apply red_mk; auto.
  - intros t v f t' f' r1 r2 H1 H2 (_ & Ht & Hf) (_ & Ht' & Hf'). apply red_mk; auto.
Qed.

Lemma apply_shp z op : is_apply z op -> forall a b lo, shp lo a -> shp lo b -> shp lo (op a b).
Proof. intros Hop a b lo [Oa Ra] [Ob Rb]. split; [apply (apply_ord z)|apply (apply_red z)]; assumption. Qed.

Lemma shp_band lo a b : shp lo a -> shp lo b -> shp lo (band a b).
Proof. exact (apply_shp false band band_apply a b lo). Qed.
Lemma shp_bor lo a b : shp lo a -> shp lo b -> shp lo (bor a b).
Proof. exact (apply_shp true bor bor_apply a b lo). Qed.

(** negation rebuilds the whole operand with mk: its result is reduced whatever the operand looked like *)
Lemma bnot_shp : forall a lo, ord lo a -> shp lo (bnot a).
Proof.
  induction a as [| |t IHt v f IHf]; intros lo Ho; cbn [bnot]; [split; exact I|split; exact I|].
  destruct Ho as (Hv & Hot & Hof). apply shp_mk; auto.
Qed.
Lemma shp_bnot lo a : shp lo a -> shp lo (bnot a).
Proof. intros [Ho _]. apply bnot_shp, Ho. Qed.

Lemma shp_bimplies lo a b : shp lo a -> shp lo b -> shp lo (bimplies a b).
Proof. intros. apply shp_bor; auto. apply shp_bnot; auto. Qed.
Lemma shp_bite lo a b c : shp lo a -> shp lo b -> shp lo c -> shp lo (bite a b c).
Proof. intros. apply shp_band; apply shp_bimplies; auto. apply shp_bnot; auto. Qed.
Lemma shp_beq lo a b : shp lo a -> shp lo b -> shp lo (beq a b).
Proof. intros. apply shp_band; apply shp_bimplies; auto. Qed.
Lemma shp_bxor lo a b : shp lo a -> shp lo b -> shp lo (bxor a b).
Proof. intros. apply shp_bor; apply shp_band; auto; apply shp_bnot; auto. Qed.
Lemma shp_bnor lo a b : shp lo a -> shp lo b -> shp lo (bnor a b).
Proof. intros. apply shp_band; apply shp_bnot; auto. Qed.
Lemma shp_bnand lo a b : shp lo a -> shp lo b -> shp lo (bnand a b).
Proof. intros. apply shp_bnot, shp_band; auto. Qed.
Lemma shp_bvar lo v : lo <= v -> shp lo (bvar v).
Proof. intros. apply shp_mk; [assumption|split; exact I|split; exact I]. Qed.

Lemma shp_cmp_count lo cmp : forall bs n, Forall (shp lo) bs -> shp lo (cmp_count bs n cmp).
Proof.
  induction bs as [|x r IH]; intros n H; cbn [cmp_count]; [apply shp_bconst|].
  inversion H; subst. apply shp_bite; auto.
Qed.
Lemma shp_cmp_count_compare lo (cmp : list bdd -> Z -> bdd) b :
  (forall n, shp lo (cmp b n)) -> forall a n, Forall (shp lo) a -> shp lo (cmp_count_compare a b n cmp).
Proof.
  intros Hc. induction a as [|x r IH]; intros n H; cbn [cmp_count_compare]; auto.
  inversion H; subst. apply shp_bite; auto.
Qed.

Lemma ord_bex1 x : forall b lo, ord lo b -> ord lo (bex1 x b).
Proof.
  induction b as [| |t IHt v f IHf]; intros lo Hb; cbn [bex1]; auto.
  destruct Hb as (Hv & Ht & Hf). destruct (Nat.eqb v x).
  - apply (ord_weaken (S v)); [lia|]. apply (apply_ord true bor bor_apply); assumption.
  - apply ord_mk; auto.
Qed.
Lemma ord_bex vs : forall b lo, ord lo b -> ord lo (bex vs b).
Proof. induction vs as [|x vs IH]; intros b lo H; cbn [bex]; auto. apply ord_bex1; auto. Qed.
Lemma red_bex1 x : forall b, red b -> red (bex1 x b).
Proof.
  induction b as [| |t IHt v f IHf]; intros Hb; cbn [bex1]; auto.
  destruct Hb as (_ & Ht & Hf). destruct (Nat.eqb v x); [apply (apply_red true bor bor_apply)|apply red_mk]; auto.
Qed.
Lemma shp_bex1 x b lo : shp lo b -> shp lo (bex1 x b).
Proof. intros [Ho Hr]. split; [apply ord_bex1|apply red_bex1]; assumption. Qed.
Lemma shp_bex vs : forall b lo, shp lo b -> shp lo (bex vs b).
Proof. induction vs as [|x vs IH]; intros b lo H; cbn [bex]; auto. apply shp_bex1; auto. Qed.
Lemma shp_ball vs b lo : shp lo b -> shp lo (ball vs b).
Proof. intros. unfold ball. apply shp_bnot, shp_bex, shp_bnot; auto. Qed.

Lemma shp_bmodel : forall a lo, shp lo a -> shp lo (bmodel a).
Proof.
  induction a as [| |t IHt v f IHf]; intros lo Ha; cbn [bmodel]; auto.
  apply shp_Nd in Ha. destruct Ha as (Hv & _ & Ht & Hf).
  assert (shp lo (bmodel t)) by (apply (shp_weaken (S v)); [lia|auto]).
  assert (shp lo (bmodel f)) by (apply (shp_weaken (S v)); [lia|auto]).
  destruct (negb (bdd_eqb (bmodel t) F)).
  - apply shp_band; auto. apply shp_bvar; auto.
  - destruct (negb (bdd_eqb (bmodel f) F)); [|split; exact I].
    apply shp_band; auto. apply shp_bnot, shp_bvar; auto.
Qed.

Lemma shp_retain_go filt : forall a lo, shp lo a -> shp lo (retain_go filt a).
Proof.
  induction a as [| |l IHl v r IHr]; intros lo Ha; [exact Ha|exact Ha|].
  apply shp_Nd in Ha. destruct Ha as (Hv & _ & Hl & Hr).
  destruct (retain_go_Nd filt l v r) as [-> |[[-> _]|[-> _]]].
  - apply shp_mk; auto.
  - apply (shp_weaken (S v)); [lia|auto].
  - apply (shp_weaken (S v)); [lia|auto].
Qed.
Lemma shp_retain a filter lo : shp lo a -> shp lo (retain a filter).
Proof. intros. destruct filter; cbn [retain]; auto; apply shp_retain_go; auto. Qed.

Lemma shp_clean a lo : shp lo a -> shp lo (clean a).
Proof.
  destruct a as [| |l s r]; cbn [clean]; auto. intros Ha. apply shp_Nd in Ha. apply shp_mk; tauto.
Qed.

Lemma shp_fp lo (t : bdd -> bdd) : (forall x, shp lo x -> shp lo (t x)) ->
  forall n a r, shp lo a -> fp_f n a t = Some r -> shp lo r.
Proof.
  intros Ht. induction n as [|n IH]; intros a r Ha H; cbn [fp_f] in H; [discriminate|].
  destruct (bdd_eqb (t a) a); [inversion H; subst; auto|]. eapply IH; [|exact H]. auto.
Qed.

(** C02's "obtained from the library by whatever sequence of operations": the closure of the constants and variables under the operations of bdd.rs *)
Inductive Reach : bdd -> Prop :=
| R_const b : Reach (bconst b)
| R_var v : Reach (bvar v)
| R_mk t v f : Reach t -> Reach f -> ord (S v) t -> ord (S v) f -> Reach (mk t v f)   (* public mk_choice used in order *)
| R_and a b : Reach a -> Reach b -> Reach (band a b)
| R_or a b : Reach a -> Reach b -> Reach (bor a b)
| R_not a : Reach a -> Reach (bnot a)
| R_implies a b : Reach a -> Reach b -> Reach (bimplies a b)
| R_ite a b c : Reach a -> Reach b -> Reach c -> Reach (bite a b c)
| R_eq a b : Reach a -> Reach b -> Reach (beq a b)
| R_xor a b : Reach a -> Reach b -> Reach (bxor a b)
| R_nor a b : Reach a -> Reach b -> Reach (bnor a b)
| R_nand a b : Reach a -> Reach b -> Reach (bnand a b)
| R_aln bs n : Forall Reach bs -> Reach (aln bs n)
| R_amn bs n : Forall Reach bs -> Reach (amn bs n)
| R_exn bs n : Forall Reach bs -> Reach (exn bs n)
| R_leq a b : Forall Reach a -> Forall Reach b -> Reach (count_leq a b)
| R_lt a b : Forall Reach a -> Forall Reach b -> Reach (count_lt a b)
| R_geq a b : Forall Reach a -> Forall Reach b -> Reach (count_geq a b)
| R_gt a b : Forall Reach a -> Forall Reach b -> Reach (count_gt a b)
| R_ceq a b : Forall Reach a -> Forall Reach b -> Reach (count_eq a b)
| R_ex1 x b : Reach b -> Reach (bex1 x b)
| R_ex vs b : Reach b -> Reach (bex vs b)
| R_all vs b : Reach b -> Reach (ball vs b)
| R_model a : Reach a -> Reach (bmodel a)
| R_retain a f : Reach a -> Reach (retain a f)
| R_clean a : Reach a -> Reach (clean a)
| R_fp n a t r : Reach a -> (forall x, robdd x -> robdd (t x)) -> fp_f n a t = Some r -> Reach r.

Create HintDb shp discriminated.
#[global] Hint Resolve shp_bconst shp_bvar shp_band shp_bor shp_bnot shp_bimplies shp_bite shp_beq shp_bxor shp_bnor shp_bnand
  shp_cmp_count shp_cmp_count_compare shp_bex1 shp_bex shp_ball shp_bmodel shp_retain shp_clean : shp.

Theorem reach_robdd : forall b, Reach b -> robdd b.
Proof.
  fix IH 2. intros b H.
  assert (HF : forall l, Forall Reach l -> Forall (shp 0) l).
  { fix IHl 2. intros l Hl. destruct Hl as [|x l Hx Hl']; constructor; [apply IH; exact Hx|apply IHl; exact Hl']. }
  change (forall b, Reach b -> shp 0 b) in IH. change (shp 0 b).
  (* each constructor but [R_mk] and [R_fp] is an operation with its preservation lemma, the counting ones once
     unfolded to [cmp_count] and [cmp_count_compare] *)
  destruct H; unfold count_eq, count_leq, count_lt, count_geq, count_gt, aln, amn, exn; auto 6 with shp arith.
  - apply shp_mk; [lia|split; [assumption|apply IH; assumption]..].
  - eapply (shp_fp 0 t); [exact H0| |exact H1]. apply IH; assumption.
Qed.

Theorem C02_reach_canonical a b : Reach a -> Reach b -> (a = b <-> equiv a b).
Proof. intros Ha Hb. apply robdd_canonical; apply reach_robdd; assumption. Qed.
