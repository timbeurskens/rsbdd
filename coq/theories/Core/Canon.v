(** C02: reduced ordered diagrams are canonical. *)
From Coq Require Import List Arith Bool Lia PeanoNat.
From Rsbdd Require Import Core.Bdd Core.OpsFacts.

Lemma ord_weaken lo lo' a : lo' <= lo -> ord lo a -> ord lo' a.
Proof. destruct a; cbn [ord]; intuition lia. Qed.

Lemma beval_indep : forall a lo s s', ord lo a -> (forall x, lo <= x -> s x = s' x) -> beval s a = beval s' a.
Proof.
  induction a as [| |t IHt v f IHf]; intros lo s s' Ho Hs; cbn [beval ord] in *; try reflexivity.
  destruct Ho as (Hv & Ht & Hf). rewrite (Hs v Hv).
  rewrite (IHt (S v) s s'), (IHf (S v) s s'); auto; intros; apply Hs; lia.
Qed.

Lemma upd_same s v b : upd s v b v = b.
Proof. unfold upd. now rewrite Nat.eqb_refl. Qed.
Lemma upd_other s v b x : x <> v -> upd s v b x = s x.
Proof. unfold upd. intros. destruct (Nat.eqb_spec x v); congruence. Qed.

Lemma beval_upd_above a v s b : ord (S v) a -> beval (upd s v b) a = beval s a.
Proof.
  intros H. apply beval_indep with (lo := S v); auto.
  intros x Hx. apply upd_other. lia.
Qed.

Lemma beval_upd_node t v f c s : ord (S v) t -> ord (S v) f ->
  beval (upd s v c) (Nd t v f) = beval s (if c then t else f).
Proof. intros Ht Hf. cbn [beval]. rewrite upd_same. destruct c; apply beval_upd_above; assumption. Qed.

Lemma cofactors t v f b lo : ord lo (Nd t v f) -> ord (S v) b -> equiv (Nd t v f) b -> equiv t b /\ equiv f b.
Proof.
  intros (_ & Ht & Hf) Hb E.
  split; intros s; [specialize (E (upd s v true))|specialize (E (upd s v false))];
    rewrite beval_upd_node, beval_upd_above in E; auto.
Qed.

Lemma differ_sym a b : (exists s, beval s a <> beval s b) -> exists s, beval s b <> beval s a.
Proof. intros (s & H). exists s. auto. Qed.

Lemma separate_above t v f b : ord (S v) t -> ord (S v) f -> ord (S v) b -> t <> f ->
  (t <> b -> exists s, beval s t <> beval s b) -> (f <> b -> exists s, beval s f <> beval s b) ->
  exists s, beval s (Nd t v f) <> beval s b.
Proof.
  intros Ot Of Ob Hn IHt IHf.
  destruct (bdd_eq_dec t b) as [->|Ht].
  - destruct (IHf (not_eq_sym Hn)) as (s & Hs). exists (upd s v false). now rewrite beval_upd_node, beval_upd_above.
  - destruct (IHt Ht) as (s & Hs). exists (upd s v true). now rewrite beval_upd_node, beval_upd_above.
Qed.

(** Two different reduced ordered diagrams are told apart by an assignment.  A leaf is above every test, so
    all cases but the one of two tests of the same variable are [separate_above], in one order or the other. *)
Theorem separate : forall a b lo, ord lo a -> red a -> ord lo b -> red b -> a <> b ->
  exists s, beval s a <> beval s b.
Proof.
  induction a as [| |t IHt v f IHf]; induction b as [| |t' IHt' v' f' IHf']; intros lo Oa Ra Ob Rb Hne;
    try congruence; try (exists (fun _ => true); discriminate);
    try destruct Oa as (Hv & Ot & Of), Ra as (Hn & Rt & Rf);
    try destruct Ob as (Hv' & Ot' & Of'), Rb as (Hn' & Rt' & Rf').
  1, 2: apply differ_sym, separate_above; auto; intros H; apply differ_sym; eauto.
  1, 2: apply separate_above; auto; intros H; [apply (IHt _ (S v))|apply (IHf _ (S v))]; auto.
  destruct (lt_eq_lt_dec v v') as [[Hlt|<-]|Hgt].
  - assert (Ob : ord (S v) (Nd t' v' f')) by (cbn [ord]; auto).
    apply separate_above; auto; intros H; [apply (IHt _ (S v))|apply (IHf _ (S v))]; cbn [red]; auto.
  - destruct (bdd_eq_dec t t') as [<-|Ht].
    + destruct (IHf f' (S v)) as (s & Hs); auto; [congruence|].
      exists (upd s v false). now rewrite !beval_upd_node.
    + destruct (IHt t' (S v)) as (s & Hs); auto.
      exists (upd s v true). now rewrite !beval_upd_node.
  - assert (Oa : ord (S v') (Nd t v f)) by (cbn [ord]; auto).
    apply differ_sym, separate_above; auto; intros H; apply differ_sym;
      [apply (IHt' (S v'))|apply (IHf' (S v'))]; cbn [red]; auto.
Qed.

Theorem canon lo a b : ord lo a -> red a -> ord lo b -> red b -> equiv a b -> a = b.
Proof.
  intros Oa Ra Ob Rb E. destruct (bdd_eq_dec a b) as [|Hne]; [assumption|].
  destruct (separate a b lo Oa Ra Ob Rb Hne) as (s & Hs). destruct (Hs (E s)).
Qed.

Theorem robdd_canonical a b : robdd a -> robdd b -> (a = b <-> equiv a b).
Proof.
  intros [Oa Ra] [Ob Rb]. split; [intros -> s; reflexivity|]. apply (canon 0); auto.
Qed.

Corollary robdd_const a c : robdd a -> (forall s, beval s a = c) -> a = bconst c.
Proof. intros Ha H. destruct c; apply (robdd_canonical a _ Ha); try exact H; split; exact I. Qed.

Lemma ordb_spec : forall a lo, ordb lo a = true <-> ord lo a.
Proof.
  induction a as [| |t IHt v f IHf]; intros lo; cbn [ordb ord]; [tauto|tauto|].
  rewrite !andb_true_iff, Nat.leb_le, IHt, IHf. tauto.
Qed.
Lemma redb_spec : forall a, redb a = true <-> red a.
Proof.
  induction a as [| |t IHt v f IHf]; cbn [redb red]; [tauto|tauto|].
  rewrite !andb_true_iff, negb_true_iff, IHt, IHf.
  destruct (bdd_eqb_spec t f); intuition congruence.
Qed.
Lemma robddb_spec a : robddb a = true <-> robdd a.
Proof. unfold robddb, robdd. rewrite andb_true_iff, ordb_spec, redb_spec. tauto. Qed.
