(** Facts about the operations alone: structural equality decides equality; fuel is invisible in [band] and [bor]
    (unfolding equations), which share one shape; what [retain_go] does at a test. *)
From Coq Require Import List Arith Bool Lia PeanoNat.
From Rsbdd Require Import Core.Bdd Core.Ops.

Lemma bdd_eqb_spec a b : reflect (a = b) (bdd_eqb a b).
Proof.
  revert b; induction a as [| |t IHt v f IHf]; intros [| |t' v' f']; simpl; try (constructor; congruence).
  destruct (IHt t'); simpl; [|constructor; congruence].
  destruct (Nat.eqb_spec v v'); simpl; [|constructor; congruence].
  destruct (IHf f'); constructor; congruence.
Qed.

Lemma bdd_eqb_refl a : bdd_eqb a a = true.
Proof. destruct (bdd_eqb_spec a a); congruence. Qed.

Lemma existsb_eqb {A} (eqb : A -> A -> bool) (eqb_spec : forall x y, reflect (x = y) (eqb x y)) x l : existsb (eqb x) l = true <-> In x l.
Proof.
  rewrite existsb_exists. split.
  - intros (y & Hy & E). destruct (eqb_spec x y); [subst; exact Hy|discriminate].
  - intros H. exists x. split; auto. destruct (eqb_spec x x); [reflexivity|contradiction].
Qed.

Lemma bdd_eq_dec (a b : bdd) : {a = b} + {a <> b}.
Proof. destruct (bdd_eqb_spec a b); auto. Qed.

Lemma support_mk t v f : incl (support (mk t v f)) (support (Nd t v f)).
Proof. unfold mk. destruct (bdd_eqb t f); [|apply incl_refl]. intros x Hx. right. apply in_or_app. left. exact Hx. Qed.

(** [and] and [or] are the same function up to the constant [z] that absorbs ([false] for [and], [true] for [or]):
    a leaf operand equal to [z] is the answer, the other leaf gives way to the other operand
    (so the answer is always one of the operands). *)
Definition leaf_ans (z : bool) (a b : bdd) : bdd :=
  if is_const a then (if Bool.eqb (is_true a) z then a else b)
  else (if Bool.eqb (is_true b) z then b else a).

(** one unfolding of bdd.rs's and / or: two tests descend on the smaller variable, on both operands when the variables agree *)
Definition apply_step (z : bool) (rec : bdd -> bdd -> bdd) (a b : bdd) : bdd :=
  match a, b with
  | Nd at_ va af, Nd bt vb bf =>
      if va <? vb then mk (rec at_ b) va (rec af b)
      else if vb <? va then mk (rec bt a) vb (rec bf a)
      else mk (rec at_ bt) va (rec af bf)
  | _, _ => leaf_ans z a b
  end.

Definition is_apply (z : bool) (op : bdd -> bdd -> bdd) : Prop := forall a b, op a b = apply_step z op a b.

Lemma leaf_ans_operand z a b : leaf_ans z a b = a \/ leaf_ans z a b = b.
Proof. unfold leaf_ans. destruct (is_const a), (Bool.eqb (is_true a) z), (Bool.eqb (is_true b) z); auto. Qed.

Lemma apply_step_ext z rec rec' a b :
  (forall a' b', height a' + height b' < height a + height b -> rec a' b' = rec' a' b') ->
  apply_step z rec a b = apply_step z rec' a b.
Proof.
  intros H. destruct a as [| |at_ va af], b as [| |bt vb bf]; try reflexivity.
  cbn [apply_step]. destruct (va <? vb); [|destruct (vb <? va)]; f_equal; apply H; cbn [height]; lia.
Qed.

Section Fuel.
  Variables (z : bool) (op_f : nat -> bdd -> bdd -> bdd).
  Hypothesis op_f_step : forall k a b, op_f (S k) a b = apply_step z (op_f k) a b.

  Lemma step_indep : forall k1 k2 a b,
    height a + height b < k1 -> height a + height b < k2 -> op_f k1 a b = op_f k2 a b.
  Proof.
    induction k1 as [|k1 IH]; intros [|k2] a b H1 H2; try lia.
    rewrite !op_f_step. apply apply_step_ext. intros a' b' Hlt. apply IH; lia.
  Qed.

  Lemma step_is_apply : is_apply z (fun a b => op_f (S (height a + height b)) a b).
  Proof. intros a b. rewrite op_f_step. apply apply_step_ext. intros a' b' Hlt. apply step_indep; lia. Qed.
End Fuel.

Lemma band_f_step k a b : band_f (S k) a b = apply_step false (band_f k) a b.
Proof. destruct a as [| |? ? ?], b as [| |? ? ?]; reflexivity. Qed.
Lemma bor_f_step k a b : bor_f (S k) a b = apply_step true (bor_f k) a b.
Proof. destruct a as [| |? ? ?], b as [| |? ? ?]; reflexivity. Qed.

Lemma band_f_indep : forall k1 k2 a b,
  height a + height b < k1 -> height a + height b < k2 -> band_f k1 a b = band_f k2 a b.
Proof. exact (step_indep false band_f band_f_step). Qed.

Lemma band_apply : is_apply false band.
Proof. exact (step_is_apply false band_f band_f_step). Qed.
Lemma bor_apply : is_apply true bor.
Proof. exact (step_is_apply true bor_f bor_f_step). Qed.

Lemma band_unfold a b : band a b =
  match a, b with
  | F, _ => F
  | _, F => F
  | T, _ => b
  | _, T => a
  | Nd at_ va af, Nd bt vb bf =>
      if va <? vb then mk (band at_ b) va (band af b)
      else if vb <? va then mk (band bt a) vb (band bf a)
      else mk (band at_ bt) va (band af bf)
  end.
Proof. rewrite band_apply. destruct a as [| |? ? ?], b as [| |? ? ?]; reflexivity. Qed.

Lemma bor_unfold a b : bor a b =
  match a, b with
  | T, _ => T
  | _, T => T
  | F, _ => b
  | _, F => a
  | Nd at_ va af, Nd bt vb bf =>
      if va <? vb then mk (bor at_ b) va (bor af b)
      else if vb <? va then mk (bor bt a) vb (bor bf a)
      else mk (bor at_ bt) va (bor af bf)
  end.
Proof. rewrite bor_apply. destruct a as [| |? ? ?], b as [| |? ? ?]; reflexivity. Qed.

Lemma pair_height_ind (P : bdd -> bdd -> Prop) :
  (forall a b, (forall a' b', height a' + height b' < height a + height b -> P a' b') -> P a b) ->
  forall a b, P a b.
Proof.
  intros H a b. remember (height a + height b) as n eqn:E.
  revert a b E. induction n as [n IH] using lt_wf_ind. intros a b E. apply H.
  intros a' b' Hlt. apply (IH (height a' + height b')); [lia|reflexivity].
Qed.

(** Induction along the recursion of an operation of that shape, for a relation [P a b r] between the operands and the result.
    In the third premise the operands are swapped, as in the source (and(bt, a)): a [P] that is not symmetric needs [op] commutative there. *)
Lemma apply_ind z op (P : bdd -> bdd -> bdd -> Prop) : is_apply z op ->
  (forall a b, is_const a || is_const b = true -> P a b (leaf_ans z a b)) ->
  (forall t v f bt vb bf r1 r2, v < vb -> let b := Nd bt vb bf in
     P t b r1 -> P f b r2 -> P (Nd t v f) b (mk r1 v r2)) ->
  (forall at_ va af t v f r1 r2, v < va -> let a := Nd at_ va af in
     P t a r1 -> P f a r2 -> P a (Nd t v f) (mk r1 v r2)) ->
  (forall t v f t' f' r1 r2, P t t' r1 -> P f f' r2 -> P (Nd t v f) (Nd t' v f') (mk r1 v r2)) ->
  forall a b, P a b (op a b).
Proof.
  intros Hop Hleaf Hlt Hgt Heq. apply (pair_height_ind (fun a b => P a b (op a b))).
  intros a b IH. rewrite Hop.
  destruct a as [| |at_ va af], b as [| |bt vb bf]; try (apply Hleaf; reflexivity).
  cbn [apply_step]. destruct (va <? vb) eqn:E1; [|destruct (vb <? va) eqn:E2].
  - apply Nat.ltb_lt in E1. apply Hlt; auto; apply IH; cbn [height]; lia.
  - apply Nat.ltb_lt in E2. apply Hgt; auto; apply IH; cbn [height]; lia.
  - apply Nat.ltb_ge in E1, E2. assert (vb = va) by lia. subst vb. apply Heq; apply IH; cbn [height]; lia.
Qed.

(** what [retain_choice_bottom_up] does at a test, given the filtered branches: it rebuilds the test, or drops it
    for one branch when the other has become the leaf opposite to the filter *)
Lemma retain_go_Nd filt l v r : let l' := retain_go filt l in let r' := retain_go filt r in
  retain_go filt (Nd l v r) = mk l' v r'
  \/ (retain_go filt (Nd l v r) = r' /\ l' = bconst (negb filt))
  \/ (retain_go filt (Nd l v r) = l' /\ r' = bconst (negb filt)).
Proof.
  cbn [retain_go]. destruct (retain_go filt l) as [| |? ? ?], (retain_go filt r) as [| |? ? ?], filt; cbn; auto.
Qed.
