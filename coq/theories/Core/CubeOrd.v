(** C07 for every ORDERED diagram, reduced or not: nodes can be allocated through the public enum without mk_choice, so a
    diagram may contain redundant tests and "dead" nodes whose branches are both unsatisfiable.  [bmodel] is still right on
    those: it returns the false leaf exactly for the unsatisfiable ones and otherwise a reduced ordered cube that implies the
    diagram; [binfer] is right as well ([Cube.binfer_forced]). *)
From Coq Require Import List Arith Bool PeanoNat.
From Rsbdd Require Import Core.Bdd Core.Ops Core.Pres Core.Cube.

Lemma bmodel_ord : forall a lo, ord lo a ->
  (bmodel a = F \/ (is_cube (bmodel a) /\ shp lo (bmodel a))) /\ incl (support (bmodel a)) (support a).
Proof. intros a lo Ho. destruct (bmodel_spec a lo Ho) as [[[E _]|C] S]; auto. Qed.

Theorem C07_unsat_ordered a : ord 0 a -> (bmodel a = F <-> forall s, beval s a = false).
Proof. exact (bmodel_unsat a 0). Qed.

Theorem C07_cube_ordered a : ord 0 a -> bmodel a <> F ->
  is_cube (bmodel a) /\ robdd (bmodel a) /\ incl (support (bmodel a)) (support a) /\
  forall s, beval s (bmodel a) = true -> beval s a = true.
Proof. exact (bmodel_cube a 0). Qed.

Theorem C07_infer_ordered m v : ord 0 m -> (binfer m v = (true, true) <-> forall s, beval s m = true -> s v = true).
Proof. exact (binfer_forced m v 0). Qed.
Print Assumptions C07_unsat_ordered. Print Assumptions C07_cube_ordered. Print Assumptions C07_infer_ordered.
