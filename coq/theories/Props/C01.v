(** C01: evaluating a formula yields exactly its documented truth function. *)
From Rsbdd Require Import Core.Bdd Core.Canon Lang.Ast Lang.Den Lang.Eval Lang.EvalSound Lang.EvalComplete.
Theorem C01_sound n f b : wf f -> eval_f n f = Some b -> Den empty f (bden b) /\ robdd b.
Proof. exact (sound n f b). Qed.
Theorem C01_complete f d : wf f -> Den empty f d -> exists n b, eval_f n f = Some b /\ deq (bden b) d.
Proof. intros Hw HD. exact (complete (S (size f)) f d (PeanoNat.Nat.lt_succ_diag_r _) Hw HD). Qed.
Theorem C01_valid n f b : wf f -> eval_f n f = Some b -> (b = T <-> forall s, beval s b = true).
Proof. intros Hw He. split; [intros ->; reflexivity|]. apply (robdd_const _ true). apply (sound n f b Hw He). Qed.
Theorem C01_unsat n f b : wf f -> eval_f n f = Some b -> (b = F <-> forall s, beval s b = false).
Proof. intros Hw He. split; [intros ->; reflexivity|]. apply (robdd_const _ false). apply (sound n f b Hw He). Qed.
Print Assumptions C01_sound. Print Assumptions C01_complete.

(** the same over a text: whatever `tokenize` and `parse` turn the text into is the grammar's tree (C08),
    its evaluation is that tree's documented meaning (C01), canonical (C02) and over free variables only (C09) *)
From Coq Require Import List NArith.
From Rsbdd Require Import Syntax.Tokenize Syntax.Grammar Cli.Pipeline Cli.PipelineFacts.
Theorem C01_text uc ord txt p n b :
  parsed_formula uc ord txt = Done p -> eval_f n (pf_form p) = Some b ->
  exists ts, tokenize uc ord txt = Some ts /\ G_formula ts (pf_form p) /\
    Den empty (pf_form p) (bden b) /\ robdd b /\
    (forall x, In x (support b) -> In x (pf_free p)) /\
    (b = T <-> forall s, beval s b = true) /\ (b = F <-> forall s, beval s b = false).
Proof. exact (PipelineFacts.C01_text uc ord txt p n b). Qed.

(** not vacuous: "exists a # a & b | lfp x # x | c" parses and evaluates (to b | c) *)
Example C01_runs :
  exists p b, parsed_formula (fun _ => Lexer.UOther) nil
     (map N.of_nat (101 :: 120 :: 105 :: 115 :: 116 :: 115 :: 32 :: 97 :: 32 :: 35 :: 32 :: 97 :: 32 :: 38 :: 32 :: 98 :: 32 :: 124 :: 32 ::
                    108 :: 102 :: 112 :: 32 :: 120 :: 32 :: 35 :: 32 :: 120 :: 32 :: 124 :: 32 :: 99 :: nil)) = Done p
     /\ eval_f 50 (pf_form p) = Some b /\ b = Nd T 1 (Nd T 3 F).
Proof. eexists. eexists. split; [vm_compute; reflexivity|]. split; vm_compute; reflexivity. Qed.

(** "convergent lfp/gfp": for every text whose parsed tree has only positive fixed-point binders (the syntactic criterion of C06,
    nested and mixed fixed points included) the solver does return a diagram, and it is the documented meaning *)
From Rsbdd Require Import Lang.Mono Lang.FixNested.
Theorem C01_positive_total uc ord txt p : parsed_formula uc ord txt = Done p -> posfix (pf_form p) = true ->
  exists n b, eval_f n (pf_form p) = Some b /\ Den empty (pf_form p) (bden b) /\ robdd b.
Proof.
  intros Hp Hpf. apply parsed_formula_inv in Hp. destruct Hp as (ts & _ & Hp).
  apply posfix_evaluates; [exact (proj1 (parsed_form_vars ts p Hp))|exact Hpf].
Qed.
Print Assumptions C01_positive_total.
