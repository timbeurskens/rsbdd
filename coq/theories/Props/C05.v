(** C05: counting comparisons count the true operands exactly. *)
From Coq Require Import ZArith NArith.
From Rsbdd Require Import Core.Bdd Core.Ops Core.Sem Lang.Den Lang.Eval Lang.EvalSound.
Theorem C05_aln s bs n : beval s (aln bs n) = (n <=? count_true s bs)%Z. Proof. exact (aln_sem s bs n). Qed.
Theorem C05_amn s bs n : beval s (amn bs n) = (count_true s bs <=? n)%Z. Proof. exact (amn_sem s bs n). Qed.
Theorem C05_exn s bs n : beval s (exn bs n) = (count_true s bs =? n)%Z. Proof. exact (exn_sem s bs n). Qed.
Theorem C05_leq s a b : beval s (count_leq a b) = (count_true s a <=? count_true s b)%Z. Proof. exact (count_leq_sem s a b). Qed.
Theorem C05_lt s a b : beval s (count_lt a b) = (count_true s a <? count_true s b)%Z. Proof. exact (count_lt_sem s a b). Qed.
Theorem C05_geq s a b : beval s (count_geq a b) = (count_true s b <=? count_true s a)%Z. Proof. exact (count_geq_sem s a b). Qed.
Theorem C05_gt s a b : beval s (count_gt a b) = (count_true s b <? count_true s a)%Z. Proof. exact (count_gt_sem s a b). Qed.
Theorem C05_eq s a b : beval s (count_eq a b) = (count_true s a =? count_true s b)%Z. Proof. exact (count_eq_sem s a b). Qed.
Theorem C05_lang s op bs n : beval s (eval_countc op bs n) = cop_sem op (count_true s bs) (Z.of_N n).
Proof. exact (eval_countc_sem s op bs n). Qed.
Print Assumptions C05_aln. Print Assumptions C05_lang.

Example C05_instance : aln (bvar 0 :: bvar 1 :: nil) 2 = Nd (Nd T 1 F) 0 F /\ count_lt (bvar 0 :: nil) (bvar 0 :: bvar 1 :: nil) = Nd T 1 F.
Proof. split; vm_compute; reflexivity. Qed.
