(** C14: the exported diagram graph, read back, evaluates to the diagram's function; in the exported syntax tree
    every node is determined by its label and edges. *)
From Coq Require Import List.
From Rsbdd Require Import Core.Bdd Core.Ops Io.DotBdd Io.DotTree.
Theorem C14_nodes_once filt b : NoDup (dot_nodes filt b). Proof. exact (DotBdd.C14_nodes_once filt b). Qed.
Theorem C14_edges_declared b e : In e (dot_edges TAny b) -> In (fst (fst e)) (dot_nodes TAny b) /\ In (snd e) (dot_nodes TAny b).
Proof. exact (DotBdd.C14_edges_declared b e). Qed.
Theorem C14_walk b s : walk (S (height b)) TAny (dot_edges TAny b) b s = Some (beval s b). Proof. exact (DotBdd.C14_walk b s). Qed.
Theorem C14_filter_nodes filt b p : In p (dot_nodes filt b) <-> In p (dot_nodes TAny b) /\ hidden filt p = false.
Proof. exact (DotBdd.C14_filter_nodes filt b p). Qed.
Theorem C14_filter_edges filt b e : In e (dot_edges filt b) <-> In e (dot_edges TAny b) /\ hidden filt (snd e) = false.
Proof. exact (DotBdd.C14_filter_edges filt b e). Qed.
Theorem C14_tree_node f : rebuild (label f) (out_edges f) = Some f. Proof. exact (C14_rebuild f). Qed.
Print Assumptions C14_walk. Print Assumptions C14_tree_node.

Example C14_instance : length (dot_nodes TAny (Nd (Nd T 1 F) 0 (Nd T 1 F))) = 4 /\ length (dot_edges TAny (Nd (Nd T 1 F) 0 (Nd T 1 F))) = 4
                       /\ length (dot_nodes TTrue (Nd (Nd T 1 F) 0 (Nd T 1 F))) = 3.
Proof. repeat split; vm_compute; reflexivity. Qed.
