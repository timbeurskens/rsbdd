(** C02: canonical form. *)
From Rsbdd Require Import Core.Bdd Core.Canon Core.Pres.
Theorem C02_canonical a b : robdd a -> robdd b -> (a = b <-> equiv a b). Proof. exact (robdd_canonical a b). Qed.
Theorem C02_reach b : Reach b -> robdd b. Proof. exact (reach_robdd b). Qed.
Theorem C02_reach_canonical a b : Reach a -> Reach b -> (a = b <-> equiv a b). Proof. exact (Pres.C02_reach_canonical a b). Qed.
Theorem C02_valid a : robdd a -> (forall s, beval s a = true) -> a = T. Proof. exact (robdd_const a true). Qed.
Theorem C02_unsat a : robdd a -> (forall s, beval s a = false) -> a = F. Proof. exact (robdd_const a false). Qed.
Example C02_nonvacuous : robdd (Nd T 0 (Nd T 2 F)).
Proof. split; cbn; repeat split; auto; discriminate. Qed.
Print Assumptions C02_canonical. Print Assumptions C02_reach.
