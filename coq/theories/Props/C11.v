(** C11: variable ordering changes the shape of the answer, never its meaning. *)
From Coq Require Import List NArith.
From Rsbdd Require Import Core.Bdd Lang.Ast Lang.Eval Lang.Free Lang.Rename.
From Rsbdd Require Import Syntax.Lexer Syntax.Tokenize Cli.Pipeline Cli.Ordering.

(** over texts: the same formula text evaluated under ANY two orderings with pairwise distinct ids
    (permutation, subset, superset with unused names anywhere, names the text never mentions) yields two
    diagrams that denote the same function of the NAMED variables: for every valuation sigma of names,
    reading each diagram's variable i as sigma (its name in that run's id table) gives the same value.
    Proof: the tokens of a text are a function of the final id table (classify_render), so the token
    lists of two runs differ by an id renaming that respects names (tokens_related, by render_renamed);
    the grammar is closed under such renamings (grammar_rename) and the parser is the grammar (C08), so
    the trees are renamings of one another; C11_rename then transfers the denotation. *)
Theorem C11_text uc o1 o2 txt p1 p2 n1 n2 b1 b2 :
  NoDup (map snd o1) -> NoDup (map snd o2) ->
  parsed_formula uc o1 txt = Done p1 -> parsed_formula uc o2 txt = Done p2 ->
  eval_f n1 (pf_form p1) = Some b1 -> eval_f n2 (pf_form p2) = Some b2 ->
  forall sigma : name -> bool,
    beval (fun i => sigma (name_of (name_table uc o1 txt) i)) b1 =
    beval (fun i => sigma (name_of (name_table uc o2 txt) i)) b2.
Proof. exact (Ordering.C11_text uc o1 o2 txt p1 p2 n1 n2 b1 b2). Qed.

(** the orderings the binary reads from a file (ids 0, 1, ... by first appearance) qualify *)
Theorem C11_file_orderings uc t o : ordering_of_file uc t = Done o -> NoDup (map snd o).
Proof. exact (ordering_of_file_distinct uc t o). Qed.

(** "variables listed in the file are ordered as in the file": the ordering is the file's distinct names in order
    of first appearance, and the name at position a receives the id a (the header lists free variables by id) *)
Theorem C11_file_order uc t o : ordering_of_file uc t = Done o ->
  exists ws, NoDup ws /\ o = number_from 0 ws /\ ws = dedup_names nil (ident_names (lex_raw uc t)) /\
    forall a w, nth_error ws a = Some w -> assoc w o = Some a.
Proof. exact (Ordering.C11_file_order uc t o). Qed.

Theorem C11_meaning (p q : nat -> nat) : (forall x, q (p x) = x) -> forall n m f b1 b2, nofsub f ->
  eval_f n f = Some b1 -> eval_f m (rename p f) = Some b2 -> forall s, beval s b2 = beval (fun x => s (p x)) b1.
Proof. intros Hq n m f b1 b2. exact (C11_rename p q Hq n m f b1 b2). Qed.

(** the hypothesis is satisfiable: swapping the ids 0 and 1 is its own inverse *)
Example C11_instance : let p := fun x => match x with 0 => 1 | 1 => 0 | n => n end in forall x, p (p x) = x.
Proof. intros p [|[|n]]; reflexivity. Qed.
(** "b & -a" under the orderings [] and [a:5]: different diagrams, the same function of the names a, b *)
Example C11_two_orderings :
  let txt := (98 :: 32 :: 38 :: 32 :: 45 :: 97 :: nil)%N in let a := (97 :: nil)%N in
  exists p1 p2 b1 b2, parsed_formula (fun _ => UOther) nil txt = Done p1 /\ parsed_formula (fun _ => UOther) ((a, 5) :: nil) txt = Done p2 /\
    eval_f 20 (pf_form p1) = Some b1 /\ eval_f 20 (pf_form p2) = Some b2 /\ b1 = Nd (Nd F 1 T) 0 F /\ b2 = Nd F 5 (Nd T 6 F).
Proof. do 4 eexists. repeat split; vm_compute; reflexivity. Qed.

(** order-isomorphic id assignments give the same diagram up to the renaming: only the relative order of the ids matters, so
    sparse 64-bit ids may be replaced by their ranks (used by the correspondence suite S-text/evalid) *)
From Rsbdd Require Import Lang.RankIso.
Theorem C11_rank_iso (p : nat -> nat) : (forall x y, x < y -> p x < p y) -> forall n m f b1 b2, nofsub f ->
  eval_f n f = Some b1 -> eval_f m (rename p f) = Some b2 -> b2 = bmap p b1.
Proof. exact (RankIso.C11_rank_iso p). Qed.
Print Assumptions C11_rank_iso.
Example C11_rank_instance :
  let f := FBin BOr (FBin BAnd (FVar 0) (FNot (FVar 1))) (FQuant QExists (2 :: nil) (FBin BAnd (FVar 2) (FVar 3))) in
  let p := fun x => 1000 * x + 7 in
  eval_f 20 (rename p f) = option_map (bmap p) (eval_f 20 f) /\ eval_f 20 f <> None.
Proof. vm_compute. split; [reflexivity|discriminate]. Qed.

(** the round trip: exporting the order with -r and feeding it back with -o reproduces the identical table - header, rows,
    -v lines and the -r list - for every formula, every first ordering file (or none), every -f / -c / -m.  The exported list is
    taken as the ordering the second run reads (hypothesis 2: the file of names lexes back to those names); the second run
    numbers the variables by their position in the first run's order, an order isomorphism on the variables of the text, so
    the evaluated diagram is the first one renamed (C11_rank_iso_on), and retain, model and both printers commute with
    such a renaming. *)
From Rsbdd Require Import Cli.RoundTrip.
Theorem C11_roundtrip fuel fuel' uc o ordfile1 txt out1 otxt2 out2 :
  cli fuel uc o ordfile1 txt = CliOk out1 ->
  ordering_of_file uc otxt2 = Done (number_from 0 (out_order out1)) ->
  cli fuel' uc o (Some otxt2) txt = CliOk out2 ->
  out_header out2 = out_header out1 /\ out_rows out2 = out_rows out1 /\ out_true out2 = out_true out1 /\ out_order out2 = out_order out1.
Proof. exact (RoundTrip.C11_roundtrip fuel fuel' uc o ordfile1 txt out1 otxt2 out2). Qed.
Theorem C11_rank_iso_on (p q : nat -> nat) : (forall x, q (p x) = x) -> forall n m f b1 b2, nofsub f ->
  eval_f n f = Some b1 -> eval_f m (rename p f) = Some b2 ->
  (forall x y, In x (support b1) -> In y (support b1) -> x < y -> p x < p y) -> b2 = bmap p b1.
Proof. exact (RankIso.C11_rank_iso_on p q). Qed.
Print Assumptions C11_roundtrip. Print Assumptions C11_rank_iso_on.

(** the second hypothesis of C11_roundtrip holds for the text -r prints (each name followed by a newline): the names are distinct non-keyword
    identifiers of the formula text, so the file lexes back to exactly that list (maximal munch: an identifier followed by a
    newline is a maximal lexeme, nothing starts at a newline), hence the round trip through the exported TEXT *)
From Rsbdd Require Import Cli.ExportReads.
Theorem C11_roundtrip_export fuel fuel' uc o ordfile1 txt out1 out2 :
  cli fuel uc o ordfile1 txt = CliOk out1 ->
  cli fuel' uc o (Some (export (out_order out1))) txt = CliOk out2 ->
  out_header out2 = out_header out1 /\ out_rows out2 = out_rows out1 /\ out_true out2 = out_true out1 /\ out_order out2 = out_order out1.
Proof. exact (ExportReads.C11_roundtrip_export fuel fuel' uc o ordfile1 txt out1 out2). Qed.
Print Assumptions C11_roundtrip_export.
(** the hypotheses are met by an actual round trip: "b & -a" prints the order b, a; the file "b<newline>a" reads back as that
    ordering; the second run prints the same table *)
Example C11_roundtrip_instance :
  let uc := fun _ : N => UOther in let o := mkOptions Ops.TAny Ops.TAny false 1 in
  let txt := (98 :: 32 :: 38 :: 32 :: 45 :: 97 :: nil)%N in let otxt2 := (98 :: 10 :: 97 :: nil)%N in
  exists out1 out2, cli 20 uc o None txt = CliOk out1 /\ ordering_of_file uc otxt2 = Done (number_from 0 (out_order out1)) /\
    cli 20 uc o (Some otxt2) txt = CliOk out2 /\ out_rows out2 = out_rows out1 /\ out_header out1 = ((98 :: nil) :: (97 :: nil) :: nil)%N.
Proof. do 2 eexists. split; [vm_compute; reflexivity|]. split; [vm_compute; reflexivity|]. split; [vm_compute; reflexivity|]. split; reflexivity. Qed.

(** the round trip from the first run alone: if the first run prints, the run that reads the exported
    order back tokenizes, parses, evaluates for every sufficient fuel and prints the identical output *)
From Rsbdd Require Import Cli.RoundTripTotal.
Theorem C11_roundtrip_total fuel uc o ordfile1 txt out1 :
  cli fuel uc o ordfile1 txt = CliOk out1 ->
  exists fuel0, forall fuel', fuel0 <= fuel' ->
    exists out2, cli fuel' uc o (Some (export (out_order out1))) txt = CliOk out2 /\
      out_header out2 = out_header out1 /\ out_rows out2 = out_rows out1 /\ out_true out2 = out_true out1 /\ out_order out2 = out_order out1.
Proof.
  intros H1. exact (RoundTripTotal.C11_roundtrip_total fuel uc o ordfile1 txt out1 _ H1 (exported_order_reads fuel uc o ordfile1 txt out1 H1)).
Qed.
Print Assumptions C11_roundtrip_total.
