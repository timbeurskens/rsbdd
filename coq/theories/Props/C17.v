(** C17: sudoku_gen emits a formula whose models are exactly the puzzle's solutions. *)
From Coq Require Import List.
From Rsbdd Require Import Lang.FSem Gen.Sudoku Gen.Forms.
Theorem C17 r hints s :
  (forall c d, In (c, d) hints -> c < (r * r) * (r * r) /\ 1 <= d <= r * r) ->
  (fsem (sudoku_form r hints) s = true <-> exists g, Sudoku.grid_ok r hints g /\ Sudoku.encodes r s g).
Proof. exact (C17_formula r hints s). Qed.
Print Assumptions C17.

(** r = 1: the single cell must hold 1; with the given "1" the formula is satisfied by that assignment *)
Example C17_instance : fsem (sudoku_form 1 ((0, 1) :: nil)) (fun v => Nat.eqb v 1) = true /\ fsem (sudoku_form 1 nil) (fun _ => false) = false.
Proof. split; vm_compute; reflexivity. Qed.

(** over the puzzle text: the hints are read by [hints_of_text] (white space stripped, position below
    r^4, ASCII digit); when every given digit lies in 1..r^2 the emitted formula's models are exactly the
    completed grids that keep the givens *)
From Coq Require Import NArith.
From Rsbdd Require Import Gen.GenCheck.
Theorem C17_text r ws txt s :
  let hints := hints_of_text ws ((r * r) * (r * r)) txt in
  (forall c d, In (c, d) hints -> 1 <= d <= r * r) ->
  (fsem (sudoku_form r hints) s = true <-> exists g, Sudoku.grid_ok r hints g /\ Sudoku.encodes r s g).
Proof.
  intros hints Hd. apply C17_formula. intros c d Hin. split; [|exact (Hd c d Hin)].
  unfold hints, hints_of_text in Hin. destruct (hints_from_range _ _ _ c d Hin) as [Hc _]. exact (proj2 Hc).
Qed.

(** at the level of the tokens: what sudoku_gen prints (the hints as single variables, then the "= 1" lists, joined by "&", closed by
    "true") parses to exactly sudoku_form r hints *)
From Rsbdd Require Import Syntax.Token Syntax.Parser Gen.GenText.
Theorem C17_tokens r hints : parse (chain_tokens (sudoku_items r hints) ++ TEof :: nil) = Ok (sudoku_form r hints) nil.
Proof. exact (GenText.C17_tokens r hints). Qed.
Print Assumptions C17_tokens.

(** the tie by translation (DESIGN 15.7c): the three constraint nests of sudoku_gen/src/main.rs are re-read on every run and proved,
    for all r, to be cell_lists / rowcol_lists / box_lists (generated lemmas fam_1 .. fam_3) *)
From Rsbdd Require Import Lang.Ast Gen.SrcLoops.
Theorem C17_source_three r hints f1 f2 f3 :
  f1 = Sudoku.cell_lists r -> f2 = Sudoku.rowcol_lists r -> f3 = Sudoku.box_lists r ->
  map (fun h => IVar (Sudoku.vid r (fst h) (snd h))) hints ++
  map (ICount false Exactly) f1 ++ map (ICount false Exactly) f2 ++ map (ICount false Exactly) f3 ++ nil = sudoku_items r hints.
Proof. exact (sudoku_items_three r hints f1 f2 f3). Qed.
Print Assumptions C17_source_three.
