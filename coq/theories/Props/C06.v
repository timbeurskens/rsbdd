(** C06: lfp / gfp denote the least / greatest fixed point of a monotone transformer. *)
From Rsbdd Require Import Core.Bdd Core.Ops Core.Fix Lang.Ast Lang.Den Lang.DenFacts Lang.Eval Lang.EvalSound Lang.Free Lang.FSem Lang.FixLang Lang.FixFree.
Theorem C06_fp n a t r : fp_f n a t = Some r <->
  exists k, k < n /\ r = iter k t a /\ t r = r /\ forall j, j < k -> t (iter j t a) <> iter j t a.
Proof. exact (Fix.C06_fp n a t r). Qed.
Theorem C06_scope t r x b d : Den r (replace_var x (FSub b) t) d <-> Den (bind r x (fun s => beval s b)) t d.
Proof. exact (subst_den t r x b d). Qed.
Theorem C06_lfp X T : nofsub T -> nofix T ->
  (forall d1 d2 e1 e2, dle d1 d2 -> Den (bind empty X d1) T e1 -> Den (bind empty X d2) T e2 -> dle e1 e2) ->
  exists n r, eval_f n (FFix X false T) = Some r /\ robdd r /\ Den (bind empty X (bden r)) T (bden r) /\
    forall d e, Den (bind empty X d) T e -> dle e d -> dle (bden r) d.
Proof. exact (C06_lfp_fixfree X T). Qed.
Theorem C06_gfp X T : nofsub T -> nofix T ->
  (forall d1 d2 e1 e2, dle d1 d2 -> Den (bind empty X d1) T e1 -> Den (bind empty X d2) T e2 -> dle e1 e2) ->
  exists n r, eval_f n (FFix X true T) = Some r /\ robdd r /\ Den (bind empty X (bden r)) T (bden r) /\
    forall d e, Den (bind empty X d) T e -> dle d e -> dle d (bden r).
Proof. exact (C06_gfp_fixfree X T). Qed.
Print Assumptions C06_fp. Print Assumptions C06_lfp. Print Assumptions C06_gfp.

(** the iterator on a concrete monotone transformer: X := x0 | (x1 & X) from F stabilises at x0 after one step *)
Example C06_instance : fp_f 5 F (fun x => bor (bvar 0) (band (bvar 1) x)) = Some (bvar 0).
Proof. vm_compute. reflexivity. Qed.

(** a syntactic criterion for "monotone in X": every free occurrence of X in the (fixed-point-free) body has
    positive polarity - under and / or / if-branches / quantifiers / at-least counting / an even number of
    negations, never under xor / iff / an if-condition / exactly-counting.  For every such body evaluation of
    lfp X # T / gfp X # T terminates, at a fixed point below every pre-fixed point / above every post-fixed point. *)
From Coq Require Import NArith.
From Rsbdd Require Import Lang.Mono Lang.FixNested.
Theorem C06_lfp_positive X T : nofsub T -> nofix T -> pos X true T = true ->
  exists n r, eval_f n (FFix X false T) = Some r /\ robdd r /\ Den (bind empty X (bden r)) T (bden r) /\
    forall d e, Den (bind empty X d) T e -> dle e d -> dle (bden r) d.
Proof. intros Hs Hf. apply FixNested.C06_lfp_nested; [exact Hs|apply nofix_posfix, Hf]. Qed.
Theorem C06_gfp_positive X T : nofsub T -> nofix T -> pos X true T = true ->
  exists n r, eval_f n (FFix X true T) = Some r /\ robdd r /\ Den (bind empty X (bden r)) T (bden r) /\
    forall d e, Den (bind empty X d) T e -> dle d e -> dle d (bden r).
Proof. intros Hs Hf. apply FixNested.C06_gfp_nested; [exact Hs|apply nofix_posfix, Hf]. Qed.
(** the criterion is met by, e.g., the reachability body  a | (b & exists a # X) | [X, b] >= 2  and refuses  X ^ a *)
Example C06_positive_instance :
  pos 9 true (FBin BOr (FVar 0) (FBin BOr (FBin BAnd (FVar 1) (FQuant QExists (0 :: nil) (FVar 9)))
                                          (FCountC AtLeast (FVar 9 :: FVar 1 :: nil) 2%N))) = true /\
  pos 9 true (FBin BXor (FVar 9) (FVar 0)) = false.
Proof. split; reflexivity. Qed.

(** nested and mixed fixed points: when EVERY fixed-point binder of the formula (inner ones included) binds a name that is
    positive in its own body, evaluation terminates - inner iterations re-run for each outer iterate - at the least /
    greatest fixed point of the body; shadowing is handled by [pos] (an inner binder on X ends X's scope) *)
Theorem C06_lfp_nested X T : nofsub T -> posfix T = true -> pos X true T = true ->
  exists n r, eval_f n (FFix X false T) = Some r /\ robdd r /\ Den (bind empty X (bden r)) T (bden r) /\
    forall d e, Den (bind empty X d) T e -> dle e d -> dle (bden r) d.
Proof. exact (FixNested.C06_lfp_nested X T). Qed.
Theorem C06_gfp_nested X T : nofsub T -> posfix T = true -> pos X true T = true ->
  exists n r, eval_f n (FFix X true T) = Some r /\ robdd r /\ Den (bind empty X (bden r)) T (bden r) /\
    forall d e, Den (bind empty X d) T e -> dle d e -> dle d (bden r).
Proof. exact (FixNested.C06_gfp_nested X T). Qed.
(** the meaning of such a body is monotone (polarity true) or antitone (polarity false) in the name, in every environment *)
Theorem C06_monotone X f : posfix f = true -> forall p, pos X p f = true -> forall r d1 d2 e1 e2, dle d1 d2 ->
  Den (bind r X d1) f e1 -> Den (bind r X d2) f e2 -> if p then dle e1 e2 else dle e2 e1.
Proof. intros Hpf p Hp r d1 d2 e1 e2 Hd D1 D2. exact (mono_posfix X f Hpf p Hp r d1 d2 e1 e2 Hd D1 D2). Qed.
Theorem C06_terminates f : nofsub f -> posfix f = true -> exists n b, eval_f n f = Some b /\ Den empty f (bden b) /\ robdd b.
Proof. exact (posfix_evaluates f). Qed.
Print Assumptions C06_lfp_nested. Print Assumptions C06_gfp_nested. Print Assumptions C06_monotone. Print Assumptions C06_terminates.
(** lfp X # a | gfp Y # ((X & Y) | b)  with a = 0, b = 1, X = 9, Y = 8: accepted by the criterion and evaluated to a | b;
    the inner binder re-using the outer name shadows it:  lfp X # a | (gfp X # X & b)  is accepted too *)
Example C06_nested_instance :
  let T := FBin BOr (FVar 0) (FFix 8 true (FBin BOr (FBin BAnd (FVar 9) (FVar 8)) (FVar 1))) in
  posfix T = true /\ pos 9 true T = true /\ eval_f 40 (FFix 9 false T) = Some (bor (bvar 0) (bvar 1)) /\
  posfix (FBin BOr (FVar 0) (FFix 9 true (FBin BAnd (FVar 9) (FVar 1)))) = true /\
  posfix (FFix 8 false (FNot (FVar 8))) = false.
Proof. vm_compute. repeat split; reflexivity. Qed.
