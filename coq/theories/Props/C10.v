(** C10: the printed truth table is a faithful partition of the assignment space. *)
From Coq Require Import List.
From Rsbdd Require Import Core.Bdd Core.Ops Cli.Table Cli.TableFilter.
Theorem C10_partition FV : NoDup FV -> forall d lo vals,
  ord lo d -> (forall v, In v (support d) -> In v FV) -> length vals = length FV -> any_from FV lo vals ->
  exists rows, tt_rows FV d vals = Some rows /\
    (forall r, In r rows -> (forall j e, nth_error vals j = Some e -> e <> TA -> nth_error (fst r) j = Some e) /\ length (fst r) = length vals) /\
    forall s, matches FV s vals ->
      exists r, In r rows /\ matches FV s (fst r) /\ snd r = beval s d /\ forall r', In r' rows -> matches FV s (fst r') -> r' = r.
Proof. exact (tt_partition FV). Qed.
Theorem C10_filter FV filt d vals :
  tt_rows_f FV filt d vals = option_map (filter (fun r : row => agrees filt (snd r))) (tt_rows FV d vals).
Proof. exact (TableFilter.C10_filter FV filt d vals). Qed.
Theorem C10_vars FV d vals :
  tv_rows FV d vals = option_map (fun rows => map fst (filter (fun r : row => snd r) rows)) (tt_rows FV d vals).
Proof. exact (TableFilter.C10_vars FV d vals). Qed.
Print Assumptions C10_partition. Print Assumptions C10_filter.

(** the table the binary prints, end to end over the pipeline model [cli]: whenever it prints, there is
    a duplicate-free column list FV, as long as the header (that FV is the free variables is C10_header), and a row list such that
    every total assignment matches exactly one row, that row's result is the value of the printed
    diagram, the printed rows are those the filter keeps and the -v lines are the true rows *)
From Rsbdd Require Import Cli.Pipeline Cli.PipelineFacts.
Theorem C10_cli fuel uc o ordfile txt out : cli fuel uc o ordfile txt = CliOk out ->
  exists FV rows, NoDup FV /\ tt_rows FV (out_diagram out) (all_any FV) = Some rows /\
    out_rows out = filter (fun r : row => agrees (o_filter o) (snd r)) rows /\
    out_true out = map fst (filter (fun r : row => snd r) rows) /\
    length (out_header out) = length FV /\
    forall s, exists r, In r rows /\ matches FV s (fst r) /\ snd r = beval s (out_diagram out) /\
                        forall r', In r' rows -> matches FV s (fst r') -> r' = r.
Proof. exact (C10_cli_table fuel uc o ordfile txt out). Qed.
Theorem C10_bench {A} (ev : unit -> A) k d0 : 1 <= k -> repeat_eval k ev d0 = ev tt.
Proof. exact (TableFilter.C10_bench ev k d0). Qed.

(** the hypotheses of C10_partition are satisfiable:
    x0 & -x1 over the columns [0; 1] gives the rows (F, Any | False), (T, F | True), (T, T | False) *)
Example C10_instance :
  tt_rows (0 :: 1 :: nil) (Nd (Nd F 1 T) 0 F) (TA :: TA :: nil)
  = Some (((TF :: TA :: nil), false) :: ((TT :: TF :: nil), true) :: ((TT :: TT :: nil), false) :: nil)
  /\ tt_rows_f (0 :: 1 :: nil) TTrue (Nd (Nd F 1 T) 0 F) (TA :: TA :: nil) = Some (((TT :: TF :: nil), true) :: nil).
Proof. split; vm_compute; reflexivity. Qed.

(** the header: whenever the binary prints, the header is the list of the formula's free variables (var_is_free, exact by
    C09_free) by name, in increasing variable id - ids come from the ordering file where it lists the name (C11_file_order)
    and from first appearance otherwise - and -r prints all variables in the same order *)
From Coq Require Import Sorting.Sorted NArith.
From Rsbdd Require Import Lang.Ast.
Theorem C10_header fuel uc o ordfile txt out : cli fuel uc o ordfile txt = CliOk out ->
  exists ord p,
    (match ordfile with None => ord = nil | Some otxt => ordering_of_file uc otxt = Done ord end) /\
    parsed_formula uc ord txt = Done p /\
    let names := name_table uc ord txt in
    out_header out = map (name_of names) (pf_free p) /\
    out_order out = map (name_of names) (pf_vars p) /\
    pf_free p = filter (var_is_free (pf_form p)) (pf_vars p) /\
    Sorted le (pf_vars p) /\ NoDup (pf_vars p) /\ NoDup (pf_free p).
Proof. exact (C10_cli_header fuel uc o ordfile txt out). Qed.
Print Assumptions C10_header.
