(** C08: the parser accepts exactly the grammar and builds the tree it prescribes. *)
From Coq Require Import List NArith.
From Rsbdd Require Import Lang.Ast Syntax.Token Syntax.Lexer Syntax.LexSpec Syntax.Tokenize Syntax.Parser Syntax.Grammar Syntax.ParserComplete.
Theorem C08_lex uc l : Lexes uc l (lex_raw uc l). Proof. exact (LexSpec.C08_lex uc l). Qed.
Theorem C08_parse uc ordering txt ts f : tokenize uc ordering txt = Some ts -> (parse ts = Ok f nil <-> G_formula ts f).
Proof. exact (C08_text uc ordering txt ts f). Qed.
Theorem C08_unique ts f1 f2 : G_formula ts f1 -> G_formula ts f2 -> f1 = f2. Proof. exact (ParserComplete.C08_unique ts f1 f2). Qed.
Print Assumptions C08_lex. Print Assumptions C08_parse.

(** a sentence and a non-sentence: "a & -b" and "-(a] b", which mixes brackets (finding D1) *)
Example C08_instance :
  parse (TVar 0 :: TAnd :: TNot :: TVar 1 :: TEof :: nil) = Ok (FBin BAnd (FVar 0) (FNot (FVar 1))) nil /\
  parse (TNot :: TOpenParen :: TVar 0 :: TCloseSquare :: TVar 1 :: TEof :: nil) = Err.
Proof. split; vm_compute; reflexivity. Qed.

(** the lexing relation is functional: the scanner's output is THE tokenisation of a text (leftmost, longest
    lexeme; complete comments and characters at which nothing starts are skipped) *)
From Rsbdd Require Import Syntax.LexUnique.
Theorem C08_lex_unique uc l ts : Lexes uc l ts <-> ts = lex_raw uc l.
Proof. exact (LexUnique.C08_lex_unique uc l ts). Qed.

(** the parser is onto: every syntax tree without embedded diagrams is the parse of its (fully bracketed)
    print-out, and every tree of the grammar is such a tree *)
From Rsbdd Require Import Lang.Free Syntax.Printer.
Theorem C08_print_parse f : nofsub f -> parse (unparse f ++ TEof :: nil) = Ok f nil.
Proof. exact (parse_unparse f). Qed.
Theorem C08_parse_trees ts f : G_formula ts f -> nofsub f.
Proof. exact (parse_nofsub ts f). Qed.
Print Assumptions C08_print_parse. Print Assumptions C08_parse_trees.
Example C08_print_instance :
  unparse (FQuant QExists (0 :: 1 :: nil) (FCountC AtMost (FVar 0 :: FNot (FVar 2) :: nil) 1%N))
  = TOpenParen :: TExists :: TVar 0 :: TComma :: TVar 1 :: THash :: TOpenSquare :: TVar 0 :: TComma :: TNot :: TVar 2 :: TCloseSquare
      :: TImpliesInv :: TNum 1%N :: TCloseParen :: nil.
Proof. vm_compute; reflexivity. Qed.

(** the tie by translation (DESIGN 15.7b): for ANY symbol alternation and arm tables - in every run the ones the translator
    has just read from src/parser.rs - two conditions decided by computation give: the leftmost-first alternation followed by
    the symbol arms computes what scan_symbol / token_of_sym compute, on every input, and the keyword arms are the keyword table *)
From Rsbdd Require Import Syntax.SrcTables.
Theorem C08_source_symbols alts arms : alternation_ok alts = true -> same_map arms model_symbols = true ->
  forall l, match first_match alts l with
            | Some k => exists s, scan_symbol l = Some (s, skipn (length k) l) /\ assoc k arms = Some (token_of_sym s)
            | None => scan_symbol l = None
            end.
Proof. exact (src_lexer_agrees alts arms). Qed.
Theorem C08_source_keywords arms : same_map arms keywords = true -> forall w, assoc w arms = assoc w keywords.
Proof. exact (src_keywords_agree arms). Qed.
Print Assumptions C08_source_symbols. Print Assumptions C08_source_keywords.
