(** C15: n_queens_gen emits a formula whose models are exactly the n-queens solutions. *)
From Rsbdd Require Import Lang.FSem Gen.Queens Gen.Forms.
Theorem C15 n s : 1 <= n -> (fsem (queens_form n) s = true <-> Queens.sol n s). Proof. exact (C15_formula n s). Qed.
Print Assumptions C15.

(** 4-queens has a solution: queens on cells 1, 7, 8, 14 *)
Example C15_instance : fsem (queens_form 4) (fun v => match v with 1 | 7 | 8 | 14 => true | _ => false end) = true
                       /\ fsem (queens_form 3) (fun v => match v with 0 | 5 | 7 => true | _ => false end) = false.
Proof. split; vm_compute; reflexivity. Qed.

(** at the level of the text: the token stream n_queens_gen prints (one list "[v, v, ..,] <= 1" or "= 1" per line with a trailing
    comma inside, joined by "&", closed by "true") parses to exactly queens_form n, for every n *)
From Coq Require Import List NArith.
From Rsbdd Require Import Lang.Ast Syntax.Token Syntax.Parser Gen.GenText.
Theorem C15_text n : parse (chain_tokens (queens_items n) ++ TEof :: nil) = Ok (queens_form n) nil.
Proof. exact (GenText.C15_text n). Qed.
Print Assumptions C15_text.
Example C15_text_instance :
  chain_tokens (queens_items 1) =
  TOpenSquare :: TVar 0 :: TComma :: TCloseSquare :: TImpliesInv :: TNum 1%N :: TAnd ::
  TOpenSquare :: TVar 0 :: TComma :: TCloseSquare :: TImpliesInv :: TNum 1%N :: TAnd ::
  TOpenSquare :: TVar 0 :: TComma :: TCloseSquare :: TEq :: TNum 1%N :: TAnd ::
  TOpenSquare :: TVar 0 :: TComma :: TCloseSquare :: TEq :: TNum 1%N :: TAnd :: TTrue :: nil.
Proof. vm_compute. reflexivity. Qed.

(** the tie by translation (DESIGN 15.7c): the six loop nests of n_queens_gen/src/main.rs are re-read on every run and proved, for
    all n, to be the six families below (generated lemmas fam_1 .. fam_6, by extensionality and lia / nia); this lemma then gives
    "the items the source prints are queens_items n" *)
From Rsbdd Require Import Gen.SrcLoops.
Theorem C15_source_six n f1 f2 f3 f4 f5 f6 :
  f1 = Queens.d1a n -> f2 = Queens.d1b n -> f3 = Queens.d2a n -> f4 = Queens.d2b n -> f5 = Queens.rows n -> f6 = Queens.cols n ->
  map (ICount true AtMost) f1 ++ map (ICount true AtMost) f2 ++ map (ICount true AtMost) f3 ++ map (ICount true AtMost) f4 ++
  map (ICount true Exactly) f5 ++ map (ICount true Exactly) f6 ++ nil = queens_items n.
Proof. exact (queens_items_six n f1 f2 f3 f4 f5 f6). Qed.
Print Assumptions C15_source_six.
