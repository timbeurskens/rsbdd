(** C16: max_clique_gen emits a formula whose models are exactly the maximum cliques. *)
From Coq Require Import List ZArith.
From Rsbdd Require Import Lang.FSem Gen.Clique Gen.CliqueComp.
(** undirected mode, with the complement list the generator builds *)
Theorem C16_all_undirected vs E s :
  fsem (form_all (comp_undir vs E)) s = true <-> clique vs (adj_undir E) s.
Proof.
  apply (C16_all vs (adj_undir E) (comp_undir vs E)).
  - apply comp_undir_sound. - apply comp_undir_complete.
Qed.
Theorem C16_max_undirected vs E cp s :
  (forall a b, In a vs -> In b vs -> cp a = cp b -> a = b) -> (forall a b, In a vs -> In b vs -> cp a <> b) ->
  (fsem (form_max vs (comp_undir vs E) cp) s = true <->
   clique vs (adj_undir E) s /\ forall t, clique vs (adj_undir E) t -> (cnt vs t <= cnt vs s)%Z).
Proof.
  intros Hinj Hfresh. apply (C16_max vs (adj_undir E) (comp_undir vs E)); auto.
  - apply comp_undir_sound. - apply comp_undir_complete.
Qed.
Theorem C16_all_directed vs E s :
  fsem (form_all (comp_dir vs E)) s = true <-> clique vs (adj_dir E) s.
Proof.
  apply (C16_all vs (adj_dir E) (comp_dir vs E)).
  - apply comp_dir_sound. - apply comp_dir_complete.
Qed.
Print Assumptions C16_all_undirected. Print Assumptions C16_max_undirected.

(** path a - b - c (undirected): {a, b} is a maximum clique, {a} is a clique but not maximum *)
Example C16_instance :
  let vs := 0 :: 1 :: 2 :: nil in let E := (0, 1) :: (1, 2) :: nil in let cp := fun v => 10 + v in
  fsem (form_max vs (comp_undir vs E) cp) (fun v => match v with 0 | 1 => true | _ => false end) = true /\
  fsem (form_max vs (comp_undir vs E) cp) (fun v => match v with 0 => true | _ => false end) = false /\
  fsem (form_all (comp_undir vs E)) (fun v => match v with 0 => true | _ => false end) = true.
Proof. repeat split; vm_compute; reflexivity. Qed.

(** the copy naming of the generator is what the two hypotheses of C16_max_undirected and of C16_max_directed (after these two theorems) ask of the ids, at the level of names: the prefix
    "v_" extended by '_' until no vertex name starts with it gives copies that are new names and pairwise different *)
From Rsbdd Require Import Gen.Prefix.
Theorem C16_copies_fresh vs u v : In u vs -> In v vs -> copy_prefix vs ++ u <> v.
Proof. exact (copies_fresh vs u v). Qed.
Theorem C16_copies_injective vs u v : copy_prefix vs ++ u = copy_prefix vs ++ v -> u = v.
Proof. exact (copies_injective vs u v). Qed.
Theorem C16_max_directed vs E cp s :
  (forall a b, In a vs -> In b vs -> cp a = cp b -> a = b) -> (forall a b, In a vs -> In b vs -> cp a <> b) ->
  (fsem (form_max vs (comp_dir vs E) cp) s = true <->
   clique vs (adj_dir E) s /\ forall t, clique vs (adj_dir E) t -> (cnt vs t <= cnt vs s)%Z).
Proof.
  intros Hinj Hfresh. apply (C16_max vs (adj_dir E) (comp_dir vs E)); auto.
  - apply comp_dir_sound. - apply comp_dir_complete.
Qed.

(** the token stream the generator prints - "-(a & b) &" per complement pair (or "true &"), then "true" / the maximality clause
    "forall copies # ( .. ) => [vertices] >= [copies]" - parses to exactly form_all / form_max (parser = grammar, C08) *)
From Rsbdd Require Import Syntax.Token Syntax.Parser Gen.GenText.
Theorem C16_text_all comp : parse (all_tokens comp ++ TEof :: nil) = Ok (form_all comp) nil.
Proof. exact (all_parses comp). Qed.
Theorem C16_text_max vs comp cp : parse (max_tokens vs comp cp ++ TEof :: nil) = Ok (form_max vs comp cp) nil.
Proof. exact (max_parses vs comp cp). Qed.
Print Assumptions C16_text_max.
